(* M0 - string/list utilities mirroring the Python str / list operations kernpy uses.
   Coq [string] = sequence of bytes (UTF-8 of the Python str). *)
From Coq Require Import List String Ascii Bool Arith ZArith Lia.
Import ListNotations.
Open Scope string_scope.

(* ---------- basic ---------- *)
Fixpoint rev_string_aux (s acc : string) : string :=
  match s with EmptyString => acc | String c s' => rev_string_aux s' (String c acc) end.

Fixpoint string_of_chars (l : list ascii) : string :=
  match l with [] => EmptyString | c :: l' => String c (string_of_chars l') end.
Fixpoint chars_of_string (s : string) : list ascii :=
  match s with EmptyString => [] | String c s' => c :: chars_of_string s' end.

Lemma string_of_chars_of_string s : string_of_chars (chars_of_string s) = s.
Proof. exact (string_of_list_ascii_of_string s). Qed.
Lemma chars_of_string_of_chars l : chars_of_string (string_of_chars l) = l.
Proof. exact (list_ascii_of_string_of_list_ascii l). Qed.
Lemma chars_of_string_app a b : chars_of_string (a ++ b) = (chars_of_string a ++ chars_of_string b)%list.
Proof. induction a as [|c a IH]; cbn; congruence. Qed.
Lemma string_of_chars_app a b : string_of_chars (a ++ b)%list = string_of_chars a ++ string_of_chars b.
Proof. induction a as [|c a IH]; cbn; congruence. Qed.

(* str * n *)
Fixpoint repeat_string (s : string) (n : nat) : string :=
  match n with O => "" | S n' => s ++ repeat_string s n' end.

(* c * n for one character *)
Fixpoint repeat_char (c : ascii) (n : nat) : string :=
  match n with O => "" | S n' => String c (repeat_char c n') end.

Definition filter_string (p : ascii -> bool) (s : string) : string :=
  string_of_chars (filter p (chars_of_string s)).

Definition map_string (f : ascii -> ascii) (s : string) : string :=
  string_of_chars (map f (chars_of_string s)).

(* s.startswith(p) *)
Fixpoint startswith (p s : string) : bool :=
  match p, s with
  | EmptyString, _ => true
  | String a p', String b s' => Ascii.eqb a b && startswith p' s'
  | _, EmptyString => false
  end.

Fixpoint drop (n : nat) (s : string) : string :=
  match n, s with O, _ => s | S n', String _ s' => drop n' s' | S _, EmptyString => "" end.

Fixpoint take (n : nat) (s : string) : string :=
  match n, s with O, _ => "" | S n', String c s' => String c (take n' s') | S _, EmptyString => "" end.

Definition endswith (p s : string) : bool :=
  let lp := String.length p in let ls := String.length s in
  Nat.leb lp ls && String.eqb (drop (ls - lp) s) p.

(* s.replace(pat, rep) for non-empty pat (left to right, non overlapping) *)
Fixpoint replace_fuel (fuel : nat) (pat rep s : string) : string :=
  match fuel with
  | O => s
  | S f =>
    match s with
    | EmptyString => ""
    | String c s' =>
      if startswith pat s then rep ++ replace_fuel f pat rep (drop (String.length pat) s)
      else String c (replace_fuel f pat rep s')
    end
  end.
Definition replace (pat rep s : string) : string :=
  match pat with EmptyString => s | _ => replace_fuel (S (String.length s)) pat rep s end.

(* remove every occurrence of one character: s.replace(c, '') *)
Definition remove_char (c : ascii) (s : string) : string :=
  filter_string (fun x => negb (Ascii.eqb x c)) s.

(* s.split(sep) for a single-character separator *)
Fixpoint split_char_aux (sep : ascii) (s cur : string) : list string :=
  match s with
  | EmptyString => [rev_string_aux cur ""]
  | String c s' => if Ascii.eqb c sep then rev_string_aux cur "" :: split_char_aux sep s' ""
                   else split_char_aux sep s' (String c cur)
  end.
Definition split_char (sep : ascii) (s : string) : list string := split_char_aux sep s "".

(* s.split(sep) for non-empty string separator *)
Fixpoint split_str_fuel (fuel : nat) (sep s cur : string) : list string :=
  match fuel with
  | O => [rev_string_aux cur s]
  | S f =>
    match s with
    | EmptyString => [rev_string_aux cur ""]
    | String c s' =>
      if startswith sep s then rev_string_aux cur "" :: split_str_fuel f sep (drop (String.length sep) s) ""
      else split_str_fuel f sep s' (String c cur)
    end
  end.
Definition split_str (sep s : string) : list string := split_str_fuel (S (String.length s)) sep s "".

(* sep.join(parts) *)
Fixpoint join (sep : string) (l : list string) : string :=
  match l with
  | [] => ""
  | [x] => x
  | x :: l' => x ++ sep ++ join sep l'
  end.

Definition contains_str (pat s : string) : bool :=
  match pat with
  | EmptyString => true
  | _ => negb (Nat.eqb (List.length (split_str pat s)) 1)
  end.

Fixpoint contains_char (c : ascii) (s : string) : bool :=
  match s with EmptyString => false | String x s' => Ascii.eqb x c || contains_char c s' end.

(* list facts that the standard library of Coq 8.16 lacks *)
Lemma filter_all {A} (f : A -> bool) : forall l, (forall x, In x l -> f x = true) -> filter f l = l.
Proof.
  induction l as [|x l IH]; intros H; [reflexivity|]. cbn [filter]. rewrite (H x (or_introl eq_refl)), IH; [reflexivity|].
  intros y Hy. apply H. now right.
Qed.

Lemma forallb_impl {A} (p q : A -> bool) l : (forall x, p x = true -> q x = true) -> forallb p l = true -> forallb q l = true.
Proof.
  intros H. induction l as [|x l IH]; cbn [forallb]; [reflexivity|]. intros Hp. apply andb_true_iff in Hp as [Hx Hp].
  now rewrite (H x Hx), IH.
Qed.

Lemma forallb_repeat {A} (p : A -> bool) x n : p x = true -> forallb p (repeat x n) = true.
Proof. intros H. induction n; simpl; [reflexivity | now rewrite H]. Qed.

Lemma Forall2_length {A B} (R : A -> B -> Prop) l l' : Forall2 R l l' -> List.length l = List.length l'.
Proof. induction 1; simpl; congruence. Qed.

Lemma Forall2_impl {A B} (R S : A -> B -> Prop) : (forall a b, R a b -> S a b) -> forall l l', Forall2 R l l' -> Forall2 S l l'.
Proof. intros H l l' F. induction F; constructor; auto. Qed.

Lemma flat_map_ext_in {A B} (f g : A -> list B) l : (forall x, In x l -> f x = g x) -> flat_map f l = flat_map g l.
Proof. intros H. rewrite !flat_map_concat_map. f_equal. now apply map_ext_in. Qed.

Lemma NoDup_app {A} (l1 l2 : list A) : NoDup l1 -> NoDup l2 -> (forall a, In a l1 -> ~ In a l2) -> NoDup (l1 ++ l2).
Proof.
  induction 1 as [|a l1 Ha Hl IH]; intros H2 Hd; [exact H2|]. cbn. constructor.
  - rewrite in_app_iff. intros [Hin|Hin]; [contradiction | apply (Hd a); [now left | exact Hin]].
  - apply IH; [exact H2|]. intros x Hx. apply Hd. now right.
Qed.

Lemma NoDup_flat_map {A B} (g : A -> list B) l : NoDup l -> (forall x, In x l -> NoDup (g x)) ->
  (forall x y z, In x l -> In y l -> x <> y -> In z (g x) -> In z (g y) -> False) -> NoDup (flat_map g l).
Proof.
  induction 1 as [|a l Ha Hl IH]; intros Hg Hd; [constructor|]. cbn. apply NoDup_app.
  - apply Hg. now left.
  - apply IH; [intros x Hx; apply Hg; now right|]. intros x y z Hx Hy. apply Hd; now right.
  - intros z Hz1 Hz2. apply in_flat_map in Hz2. destruct Hz2 as [y [Hy Hzy]].
    apply (Hd a y z); [now left | now right | intros ->; contradiction | exact Hz1 | exact Hzy].
Qed.

Lemma flat_map_length_le {A B} (f : A -> list B) l k : In k l -> List.length (f k) <= List.length (flat_map f l).
Proof.
  induction l as [|x l IH]; simpl; [intros []|]. rewrite app_length. intros [->|H]; [lia | apply IH in H; lia].
Qed.

Lemma NoDup_map_inj {A B} (f : A -> B) l x y : NoDup (map f l) -> In x l -> In y l -> f x = f y -> x = y.
Proof.
  induction l as [|z l IH]; simpl; [intros _ []|]. intros Hn Hx Hy E. apply NoDup_cons_iff in Hn. destruct Hn as [Hz Hn].
  destruct Hx as [->|Hx], Hy as [->|Hy]; auto.
  - destruct Hz. rewrite E. apply in_map, Hy.
  - destruct Hz. rewrite <- E. apply in_map, Hx.
Qed.

(* for the folds of the exporter and the api, which stay at an error once they have reached one *)
Lemma fold_left_stuck {A B} (f : B -> A -> B) z : (forall x, f z x = z) -> forall l, fold_left f l z = z.
Proof. intros H. induction l as [|x l IH]; cbn [fold_left]; [reflexivity | now rewrite H]. Qed.

(* ---------- ascii classes ---------- *)
Definition ascii_nat (c : ascii) : nat := nat_of_ascii c.
Definition is_digit (c : ascii) : bool := let n := ascii_nat c in Nat.leb 48 n && Nat.leb n 57.
Definition is_lower (c : ascii) : bool := let n := ascii_nat c in Nat.leb 97 n && Nat.leb n 122.
Definition is_upper (c : ascii) : bool := let n := ascii_nat c in Nat.leb 65 n && Nat.leb n 90.
Definition to_lower (c : ascii) : ascii := if is_upper c then ascii_of_nat (ascii_nat c + 32) else c.
Definition to_upper (c : ascii) : ascii := if is_lower c then ascii_of_nat (ascii_nat c - 32) else c.
Definition lower (s : string) : string := map_string to_lower s.
Definition upper (s : string) : string := map_string to_upper s.

(* ---------- ordering (byte-wise lexicographic = code point order on UTF-8) ---------- *)
Fixpoint string_ltb (a b : string) : bool :=
  match a, b with
  | EmptyString, EmptyString => false
  | EmptyString, String _ _ => true
  | String _ _, EmptyString => false
  | String x a', String y b' =>
    if Nat.ltb (ascii_nat x) (ascii_nat y) then true
    else if Nat.ltb (ascii_nat y) (ascii_nat x) then false
    else string_ltb a' b'
  end.
Definition string_leb (a b : string) : bool := negb (string_ltb b a).

(* ---------- association lists ---------- *)
Fixpoint assoc_str {A} (k : string) (l : list (string * A)) : option A :=
  match l with [] => None | (k', v) :: l' => if String.eqb k k' then Some v else assoc_str k l' end.
Fixpoint assoc_z {A} (k : Z) (l : list (Z * A)) : option A :=
  match l with [] => None | (k', v) :: l' => if Z.eqb k k' then Some v else assoc_z k l' end.
Fixpoint mem_str (k : string) (l : list string) : bool :=
  match l with [] => false | x :: l' => String.eqb k x || mem_str k l' end.

Lemma mem_str_In k l : mem_str k l = true <-> In k l.
Proof.
  induction l as [|x l IH]; simpl; [split; [discriminate | tauto]|].
  rewrite orb_true_iff, IH, String.eqb_eq. split; intros [H|H]; auto.
Qed.

Lemma mem_str_false k l : mem_str k l = false <-> ~ In k l.
Proof. rewrite <- mem_str_In. symmetry. apply not_true_iff_false. Qed.

Lemma assoc_str_In {A} k (l : list (string * A)) v : assoc_str k l = Some v -> In (k, v) l.
Proof.
  induction l as [|[k' v'] l IH]; simpl; [discriminate|]. destruct (String.eqb k k') eqn:E; [|auto].
  apply String.eqb_eq in E. intros H. injection H as <-. subst k'. left. reflexivity.
Qed.

Lemma assoc_str_None {A} k (l : list (string * A)) k' :
  assoc_str k l = None -> mem_str k' (map fst l) = true -> String.eqb k k' = false.
Proof.
  rewrite mem_str_In. induction l as [|[k0 v] l IH]; simpl; [intros _ []|].
  destruct (String.eqb k k0) eqn:E; [discriminate|]. intros H [<-|H']; auto.
Qed.

(* ---------- stable insertion sort by a comparison (Python sorted(key=...)) ---------- *)
Section Sort.
  Context {A : Type} (leb : A -> A -> bool).
  (* insert x AFTER all elements that are <= x : stable *)
  Fixpoint insert_sorted (x : A) (l : list A) : list A :=
    match l with
    | [] => [x]
    | y :: l' => if leb y x then y :: insert_sorted x l' else x :: l
    end.
  (* fold from the right inserts later elements first; to keep stability we insert
     each element before equal elements already placed -- so use a left fold. *)
  Fixpoint insertion_sort_acc (acc l : list A) : list A :=
    match l with [] => acc | x :: l' => insertion_sort_acc (insert_sorted x acc) l' end.
  Definition stable_sort (l : list A) : list A := insertion_sort_acc [] l.
End Sort.

(* decimal printing of Z / nat *)
Fixpoint nat_digits (fuel n : nat) (acc : string) : string :=
  match fuel with
  | O => acc
  | S f => let d := Nat.modulo n 10 in let q := Nat.div n 10 in
           let acc' := String (ascii_of_nat (48 + d)) acc in
           if Nat.eqb q 0 then acc' else nat_digits f q acc'
  end.
Definition string_of_nat (n : nat) : string := nat_digits (S n) n "".
Definition string_of_Z (z : Z) : string :=
  match z with
  | Z0 => "0"
  | Zpos p => string_of_nat (Pos.to_nat p)
  | Zneg p => "-" ++ string_of_nat (Pos.to_nat p)
  end.

(* int(s) for an optional '-' followed by digits *)
Fixpoint parse_nat_aux (s : string) (acc : Z) : option Z :=
  match s with
  | EmptyString => Some acc
  | String c s' => if is_digit c then parse_nat_aux s' (10 * acc + Z.of_nat (ascii_nat c - 48))%Z else None
  end.
Definition parse_Z (s : string) : option Z :=
  match s with
  | EmptyString => None
  | String "-"%char EmptyString => None
  | String "-"%char s' => option_map Z.opp (parse_nat_aux s' 0%Z)
  | _ => parse_nat_aux s 0%Z
  end.
