(* C17 - Token queries agree with the tree and with each other.  Property theorems only (every document). *)
From Coq Require Import List String.
From KV Require Import Strings Cat CatProofs Token Importer Queries QueriesProofs.

Theorem C17_filtered_is_subsequence : forall d f,
  get_all_tokens d (Some f) = filter (fun t => mem (tok_cat t) (valid (Some f) None)) (get_all_tokens d None).
Proof. exact filtered_is_subsequence. Qed.
Print Assumptions C17_filtered_is_subsequence.

Theorem C17_filtered_membership : forall d f t,
  In t (get_all_tokens d (Some f)) <-> In t (full_listing d) /\ exists a, In a f /\ desc a (tok_cat t).
Proof. exact filtered_membership. Qed.
Print Assumptions C17_filtered_membership.

Theorem C17_unique_no_repeats : forall d f, NoDup (map tok_enc (get_unique_tokens d f)).
Proof. exact unique_no_repeats. Qed.
Print Assumptions C17_unique_no_repeats.

Theorem C17_unique_same_encodings : forall d f e,
  In e (map tok_enc (get_unique_tokens d f)) <-> In e (map tok_enc (get_all_tokens d f)).
Proof. exact unique_same_encodings. Qed.
Print Assumptions C17_unique_same_encodings.

Theorem C17_frequencies_sum : forall d f, total (frequencies d f) = List.length (get_all_tokens d f).
Proof. exact frequencies_sum. Qed.
Print Assumptions C17_frequencies_sum.

Theorem C17_frequencies_keys : forall d f k,
  In k (map fst (frequencies d f)) <-> In k (map tok_enc (get_all_tokens d f)).
Proof. exact frequencies_keys. Qed.
Print Assumptions C17_frequencies_keys.

Theorem C17_metacomments_key : forall d k c, In c (get_metacomments d (Some k) false) -> startswith ("!!!" ++ k) c = true.
Proof. exact metacomments_key. Qed.
Print Assumptions C17_metacomments_key.

(* the listing visits EVERY node of an imported document EXACTLY ONCE, in pre-order: the explicit-stack traversal of
   Node.dfs_iterative equals the structural pre-order (a node, then the sub-trees of its children left to right), which
   is a duplicate-free enumeration of all node ids *)
From Coq Require Import Permutation.
From KV Require Import DfsProofs.
Import ListNotations.
Theorem C17_listing_is_preorder_each_node_once : forall bad text d, loads bad text = IOk d ->
  dfs_order d = pre (List.length (d_nodes d)) d 0 /\
  Permutation (dfs_order d) (seq 0 (List.length (d_nodes d))) /\ NoDup (dfs_order d) /\
  (forall i, i < List.length (d_nodes d) ->
     pre (List.length (d_nodes d)) d i = i :: flat_map (pre (List.length (d_nodes d)) d) (n_children (get_node d i))).
Proof. exact listing_is_preorder. Qed.
Print Assumptions C17_listing_is_preorder_each_node_once.

(* obligation regenerated from the source on every run: the code this property runs through keeps exactly the state the
   model knows (no new attribute, class-level table, module-level binding or caching decorator), see proofs/State*Proofs.v *)
From KV Require Import StateGen StateBase StateDocumentProofs.
Theorem C17_state_as_modelled : state_document = modelled_state_document.
Proof. exact state_document_as_modelled. Qed.
Print Assumptions C17_state_as_modelled.
