(* C16 - Pitch spelling codec is lossless and side-effect free.  Property theorems only. *)
From Coq Require Import List.
From KV Require Import Pitch PitchSpec CodecProofs.
Open Scope Z_scope.

(* importing any spelling (7 letters, alterations -3..3, EVERY octave in Z) yields the right
   letter, alteration and octave *)
Theorem C16_import : forall l a o, In l letters_z -> In a alts7 ->
  import_pitch (spell l a o) = Some (spec_pitch l a o).
Proof. exact parse_spell. Qed.
Print Assumptions C16_import.

(* exporting that pitch returns the same spelling *)
Theorem C16_export : forall l a o, In l letters_z -> In a alts7 ->
  fst (export_pitch (spec_pitch l a o)) = spell l a o.
Proof. intros l a o Hl _. exact (export_spell l a o Hl). Qed.
Print Assumptions C16_export.

Theorem C16_round_trip : forall l a o, In l letters_z -> In a alts7 ->
  option_map (fun p => fst (export_pitch p)) (import_pitch (spell l a o)) = Some (spell l a o).
Proof. exact codec_round_trip. Qed.
Print Assumptions C16_round_trip.

(* exporting never alters the pitch it is given, so exporting twice gives the same answer *)
Theorem C16_export_pure : forall p, snd (export_pitch p) = p.
Proof. exact export_pure. Qed.
Print Assumptions C16_export_pure.

Theorem C16_export_twice : forall p, let '(t1, p1) := export_pitch p in fst (export_pitch p1) = t1.
Proof. exact export_twice_same. Qed.
Print Assumptions C16_export_twice.

Theorem C16_name_idempotent : forall l a, In l letters_z -> In a alts7 ->
  forall n, set_name (lower_name l a) = Some n -> set_name n = Some n.
Proof. exact set_name_idempotent. Qed.
Print Assumptions C16_name_idempotent.

(* obligation regenerated from the source on every run: the code this property runs through keeps exactly the state the
   model knows (no new attribute, class-level table, module-level binding or caching decorator), see proofs/State*Proofs.v *)
From KV Require Import StateGen StateBase StatePitchProofs.
Theorem C16_state_as_modelled : state_pitch = modelled_state_pitch.
Proof. exact state_pitch_as_modelled. Qed.
Print Assumptions C16_state_as_modelled.
