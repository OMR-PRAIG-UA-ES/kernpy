(* C18 - Every spine type imports every token without loss.  Property theorems only.
   [recog] (the ANTLR recogniser) is universally quantified: any deterministic function will do. *)
From Coq Require Import String.
From KV Require Import CatGen CatProofs SpineImp SpineImpProofs.

(* for **text, **dynam, **dyn, **harm, **mxhm, **fing and EVERY unknown header, and every non-empty cell text *)
Theorem C18_never_fails : forall (T : Type) (tcat : T -> cat) (recog : string -> option T) h s,
  claimed h = true -> s <> ""%string -> forall e, import_token T tcat recog h s <> RErr e.
Proof. exact import_total. Qed.
Print Assumptions C18_never_fails.

Theorem C18_shared_structure_kept : forall (T : Type) (tcat : T -> cat) (recog : string -> option T) h s t,
  claimed h = true -> s <> ""%string -> recog s = Some t -> shared (tcat t) ->
  import_token T tcat recog h s = RKept t.
Proof. exact import_shared. Qed.
Print Assumptions C18_shared_structure_kept.

Theorem C18_everything_else_verbatim : forall (T : Type) (tcat : T -> cat) (recog : string -> option T) h s,
  claimed h = true -> s <> ""%string ->
  (recog s = None \/ exists t, recog s = Some t /\ ~ shared (tcat t) /\ ~ desc (own_cat h) (tcat t)) ->
  import_token T tcat recog h s = RSimple s (own_cat h).
Proof. exact import_other. Qed.
Print Assumptions C18_everything_else_verbatim.

Theorem C18_same_under_every_header : forall (T : Type) (tcat : T -> cat) (recog : string -> option T) h1 h2 s t,
  claimed h1 = true -> claimed h2 = true -> s <> ""%string -> recog s = Some t -> shared (tcat t) ->
  import_token T tcat recog h1 s = import_token T tcat recog h2 s.
Proof. exact import_same_structure. Qed.
Print Assumptions C18_same_under_every_header.

(* obligation regenerated from the source on every run: the code this property runs through keeps exactly the state the
   model knows (no new attribute, class-level table, module-level binding or caching decorator), see proofs/State*Proofs.v *)
From KV Require Import StateGen StateBase StateImportProofs.
Theorem C18_state_as_modelled : state_import = modelled_state_import.
Proof. exact state_import_as_modelled. Qed.
Print Assumptions C18_state_as_modelled.

(* WHICH lines open a measure, for every state the importer can reach and every line: the measure index grows by the
   stage of the line exactly when one of its ordinary cells (no header, no spine operator) holds a token of category
   BARLINES - whatever the type of the spine the cell stands in - or a token under CORE while no measure is open yet;
   comment lines and blank lines never change it.  (The tokens are those of C02_tree_holds_the_source_grid.) *)
From KV Require Import Importer TreeProofs MeasureStartProofs.
Theorem C18_barlines_open_measures_under_every_spine_type : forall bad s row s', state_ok s -> hdr_ok (i_doc s) ->
  step_row bad s row = IOk s' -> measure_step_spec s row s'.
Proof. intros bad s row s' _ _. apply step_row_opens. Qed.
Print Assumptions C18_barlines_open_measures_under_every_spine_type.
