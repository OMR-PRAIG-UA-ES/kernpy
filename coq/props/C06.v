(* C06 - Spine selection is column projection.  Property theorems only (every tree, every option set). *)
From Coq Require Import List.
From KV Require Import Token Importer Exporter ExporterProofs.
Import ListNotations.

(* a node's cell is decided in two independent steps: the spine gate, then the cell (categories + encoding only) *)
Theorem C06_gate_then_cell : forall d o id,
  append_row d o id =
  if spine_selected o (header_type d id)
  then match cell_of d (o_cats o) (o_enc o) id with Ok s => Ok (Some s) | Err x => Err x end
  else Ok None.
Proof. exact append_row_factor. Qed.
Print Assumptions C06_gate_then_cell.

(* the exported row of a stage is the row of the selected sub-list of its nodes: columns of unselected spines
   (all their sub-spines share the header) are deleted, remaining cells unchanged and in order *)
Theorem C06_row_is_projection : forall d o ids,
  (forall id, In id ids -> spine_selected o (header_type d id) = false -> exists s, cell_of d (o_cats o) (o_enc o) id = Ok s) ->
  row_of_stage d o ids = row_cells d (o_cats o) (o_enc o) (filter (fun id => spine_selected o (header_type d id)) ids).
Proof. intros d o ids _. apply row_is_projection. Qed.
Print Assumptions C06_row_is_projection.

Theorem C06_unselected_ignored : forall d o id ids,
  spine_selected o (header_type d id) = false -> row_of_stage d o (id :: ids) = row_of_stage d o ids.
Proof. exact row_ignores_unselected. Qed.
Print Assumptions C06_unselected_ignored.

Theorem C06_select_all : forall d o ids, (forall id, In id ids -> spine_selected o (header_type d id) = true) ->
  row_of_stage d o ids = row_cells d (o_cats o) (o_enc o) ids.
Proof. exact select_all_row. Qed.
Print Assumptions C06_select_all.

(* obligation regenerated from the source on every run: the code this property runs through keeps exactly the state the
   model knows (no new attribute, class-level table, module-level binding or caching decorator), see proofs/State*Proofs.v *)
From KV Require Import StateGen StateBase StateExportProofs.
Theorem C06_state_as_modelled : state_export = modelled_state_export.
Proof. exact state_export_as_modelled. Qed.
Print Assumptions C06_state_as_modelled.

(* all sub-spines of a spine share its header: in every imported document a node that is not a header itself has the
   header type (text and 0-based spine id) of the cell above it on its spine path, so under EVERY option set the two
   are selected or deleted together - selection keeps or removes whole spine paths through splits and joins *)
From KV Require Import HeaderSelfProofs.
Theorem C06_spine_path_shares_header : forall bad text d, loads bad text = IOk d ->
  forall i h, i < List.length (d_nodes d) -> n_header (get_node d i) = Some h -> h <> i ->
  exists p, n_parent (get_node d i) = Some p /\ header_type d i = header_type d p /\
            (forall o, spine_selected o (header_type d i) = spine_selected o (header_type d p)).
Proof. exact spine_path_shares_header. Qed.
Print Assumptions C06_spine_path_shares_header.
