(* C07 - Measure ranges partition the score.  Property theorems only: stage-range arithmetic of the exporter
   model, the measure index of every imported document (increasing, which lines open a measure); the segmentation
   against the generator's own description is decided by correspondence and the generator's oracle. *)
From Coq Require Import List String ZArith.
From KV Require Import Token Importer Exporter ExporterProofs.
Import ListNotations.

(* consecutive stage ranges compose: exporting [a, a+n+m) yields the rows of [a, a+n) followed by those of
   [a+n, a+n+m), each row exactly once and unmodified *)
Theorem C07_ranges_compose : forall d o n m a,
  main_rows d o a (n + m) =
  match main_rows d o a n, main_rows d o (a + n) m with
  | Ok r1, Ok r2 => Ok (r1 ++ r2)
  | Err x, _ => Err x
  | Ok _, Err x => Err x
  end.
Proof. exact main_rows_split. Qed.
Print Assumptions C07_ranges_compose.

(* out-of-range measure numbers are rejected with ValueError, never clamped *)
Theorem C07_rejected : forall d o,
  (match o_from o with Some f => (f <? 0)%Z | None => false end = true \/
   match o_to o with Some t => (Z.of_nat (List.length (d_mst d)) <? t)%Z | None => false end = true \/
   match o_from o, o_to o with Some f, Some t => (t <? f)%Z | _, _ => false end = true) ->
  export_rows d o = Err "ValueError"%string.
Proof. exact range_validation. Qed.
Print Assumptions C07_rejected.

(* the measure index of every imported document is strictly increasing and addresses existing stages, so the
   stage ranges of consecutive measures are disjoint and ordered *)
From KV Require Import MeasureStartProofs.
From Coq Require Import Sorted.
Theorem C07_measure_index_sorted : forall bad text d, loads bad text = IOk d ->
  StronglySorted lt (d_mst d) /\ Forall (fun m => 1 <= m < List.length (d_stages d)) (d_mst d).
Proof. exact loads_measure_index. Qed.
Print Assumptions C07_measure_index_sorted.

(* obligation regenerated from the source on every run: the code this property runs through keeps exactly the state the
   model knows (no new attribute, class-level table, module-level binding or caching decorator), see proofs/State*Proofs.v *)
From KV Require Import StateGen StateBase StateExportProofs StateDocumentProofs.
Theorem C07_state_as_modelled : state_export = modelled_state_export /\ state_document = modelled_state_document.
Proof. exact (conj state_export_as_modelled state_document_as_modelled). Qed.
Print Assumptions C07_state_as_modelled.

(* partition: exporting the stage ranges between consecutive cut points (the measure starts of the index, which the
   theorem above shows to be strictly increasing) and concatenating them gives exactly the rows of the whole range -
   every data line once, in order, unmodified - for every document, option set and increasing list of cuts *)
Theorem C07_segments_partition : forall d o last cuts c1 rest, cuts = c1 :: rest -> StronglySorted lt cuts ->
  Forall (fun c => c <= last) cuts -> seg_rows d o cuts last = main_rows d o c1 (last - c1).
Proof. exact segments_partition. Qed.
Print Assumptions C07_segments_partition.

(* WHICH lines open a measure, for every state the importer can reach and every line: the measure index grows by the
   stage of the line exactly when one of its ordinary cells (no header, no spine operator) holds a token of category
   BARLINES - whatever the type of the spine the cell stands in - or a token under CORE while no measure is open yet;
   comment lines and blank lines never change it.  (The tokens are those of C02_tree_holds_the_source_grid.) *)
From KV Require Import TreeProofs.
Theorem C07_which_lines_open_a_measure : forall bad s row s', state_ok s -> hdr_ok (i_doc s) ->
  step_row bad s row = IOk s' -> measure_step_spec s row s'.
Proof. intros bad s row s' _ _. apply step_row_opens. Qed.
Print Assumptions C07_which_lines_open_a_measure.
