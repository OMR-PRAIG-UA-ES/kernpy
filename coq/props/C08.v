(* C08 - A measure excerpt is a self-contained, equivalent score.  PARTIAL.
   Proved: every excerpt ends with spine terminators (an existing terminator row, or a synthetic row sized by the
   spine operators of the row before it), out-of-range ranges are rejected, the body is C07's stage range; the
   signatures in force at a node of an imported document, the signature block of an excerpt column by column, the
   excerpt's text read back as its rows.
   Not proved: header first / rectangular / re-imports without errors with the same signatures in force (the composition
   import o export o import) - decided for the claimed core class by correspondence and monitors (DESIGN.md C08). *)
From Coq Require Import List String ZArith.
From KV Require Import Strings Token Importer Exporter ExporterProofs.
Import ListNotations.

Theorem C08_excerpt_terminated_partial : forall d o r t,
  o_to o = Some t -> export_rows d o = Ok r ->
  match rev r with
  | [] => True
  | last :: before =>
    (exists rest, last = "*-"%string :: rest) \/
    (exists prev, before = prev :: tl before /\
                  last = repeat "*-"%string (List.length prev + count_str "*^" prev - count_str "*v" prev))
  end.
Proof. exact excerpt_ends_terminated. Qed.
Print Assumptions C08_excerpt_terminated_partial.

Theorem C08_body_is_stage_range_partial : forall d o n m a,
  main_rows d o a (n + m) =
  match main_rows d o a n, main_rows d o (a + n) m with
  | Ok r1, Ok r2 => Ok (r1 ++ r2)
  | Err x, _ => Err x
  | Ok _, Err x => Err x
  end.
Proof. exact main_rows_split. Qed.
Print Assumptions C08_body_is_stage_range_partial.

Theorem C08_out_of_range_rejected_partial : forall d o,
  (match o_from o with Some f => (f <? 0)%Z | None => false end = true \/
   match o_to o with Some t => (Z.of_nat (List.length (d_mst d)) <? t)%Z | None => false end = true \/
   match o_from o, o_to o with Some f, Some t => (t <? f)%Z | _, _ => false end = true) ->
  export_rows d o = Err "ValueError"%string.
Proof. exact range_validation. Qed.
Print Assumptions C08_out_of_range_rejected_partial.

(* obligation regenerated from the source on every run: the code this property runs through keeps exactly the state the
   model knows (no new attribute, class-level table, module-level binding or caching decorator), see proofs/State*Proofs.v *)
From KV Require Import StateGen StateBase StateExportProofs StateDocumentProofs.
Theorem C08_state_as_modelled : state_export = modelled_state_export /\ state_document = modelled_state_document.
Proof. exact (conj state_export_as_modelled state_document_as_modelled). Qed.
Print Assumptions C08_state_as_modelled.

(* "governed by the same clef, key signature and time signature as in the full score".
   (1) For EVERY text that imports, every node's signature dictionary reads, under each class name, exactly the nearest
       signature cell of that class on the way up its spine path (through splits and joins) to the header: there is an
       entry sid for class cls IFF sid is a cell above-or-at the node holding a signature token of class cls, with no
       other signature of that class, header or '!!' line in between. *)
From KV Require Import SigForceProofs.
Theorem C08_signatures_in_force_partial : forall bad text d, loads bad text = IOk d ->
  forall i, i < List.length (d_nodes d) -> forall cls sid,
  assoc_str cls (n_sigs (get_node d i)) = Some sid <->
  (0 < sid /\ clear_path d cls sid i /\ exists t, n_tok (get_node d sid) = Some t /\ is_sig_of cls t = true).
Proof. exact loads_sig_in_force. Qed.
Print Assumptions C08_signatures_in_force_partial.

(* (2) The signature block an excerpt starts with is made, column by column, of exactly these dictionaries: one column
       per node of the excerpt's first line that has any, holding the export of every entry in dictionary order, minus
       the entries replaced by a new signature of the same class before the first note; all columns have the same
       height (otherwise the export raises - the ragged-signature finding K10) and the block is written row by row. *)
Theorem C08_excerpt_signature_block_partial : forall d o fs ts rows, signature_rows d o fs ts = Ok rows ->
  exists cols,
    Forall2 (fun id col =>
      exists l, sig_column d o fs ts id = Ok col /\ col = l /\
        Forall2 (fun c kv => export_node d o (snd kv) = Ok c) l
          (filter (fun kv => negb (sig_cancelled (S (ts - fs)) d (node_class d (snd kv)) id fs ts)) (n_sigs (get_node d id))))
      (nth fs (d_stages d) []) cols /\
    let kept := filter nonempty cols in
    (forall c, In c kept -> List.length c = List.length (hd [] kept)) /\
    rows = map (fun irow => map (fun col => nth irow col ""%string) kept) (seq 0 (List.length (hd [] kept))).
Proof.
  intros d o fs ts rows H. destruct (signature_block d o fs ts rows H) as [cols [F R]]. exists cols. split; [|exact R].
  apply (Forall2_impl _ _ (fun id col (Hc : _ /\ _) => ex_intro _ col (conj (proj1 Hc) (conj eq_refl (proj2 Hc)))) _ _ F).
Qed.
Print Assumptions C08_excerpt_signature_block_partial.

(* (3) re-import, first half: the text of an excerpt is read back by the importer's line reader as exactly the rows of
       the excerpt (preamble, signature block, body, terminators), cell for cell *)
From KV Require Import LineReaderProofs ReadBackProofs.
Theorem C08_excerpt_read_back_partial : forall bad d o rows, export_rows d o = Ok rows ->
  (forall r c, In r rows -> In c r -> cell_ok c = true) ->
  exists text, dumps d o = Ok text /\
    load_file bad text = match run_rows bad init_state (filter (fun r => negb (empty_row r)) rows) with
                         | IOk s => IOk (i_doc s) | IErr e => IErr e | IOut => IOut end.
Proof. exact dumps_then_load. Qed.
Print Assumptions C08_excerpt_read_back_partial.
