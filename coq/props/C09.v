(* C09 - Transposition is exact interval arithmetic.  Property theorems only. *)
From Coq Require Import List String BinInt.
From KV Require Import Strings PitchGen IntervalGen Pitch PitchSpec TransposeProofs.
Open Scope Z_scope.

(* letter moved by the diatonic size, sounding pitch by the semitone size, whenever spellable
   with at most two accidentals: every letter, alteration -2..2, EVERY octave in Z, every
   interval of the table regenerated from transposer.py, both directions *)
Theorem C09_exact :
  forall l a o iv dsz ssz d,
    In l letters_z -> In a alts_z -> In iv intervals ->
    interval_spec (snd iv) = Some (dsz, ssz) ->
    let r := spec_transpose l a o dsz ssz d in
    spellable r = true ->
    to_transposed (spec_pitch l a o) (fst iv) d =
      Some (spec_pitch (sr_letter r) (sr_alt r) (sr_octave r)).
Proof. exact exact_all_octaves. Qed.
Print Assumptions C09_exact.

Theorem C09_every_interval_has_a_reading :
  forallb (fun iv => match interval_spec (snd iv) with Some _ => true | None => false end) intervals = true.
Proof. exact intervals_all_parse. Qed.
Print Assumptions C09_every_interval_has_a_reading.

Theorem C09_inverse : forall p k d q,
  to_transposed p k d = Some q -> to_transposed q k (opp_direction d) = Some p.
Proof. exact transpose_back. Qed.
Print Assumptions C09_inverse.

Theorem C09_unison : forall p d cp,
  assoc_str (ap_name p) chromas = Some cp -> to_transposed p (iv "P1") d = Some p.
Proof. exact unison_identity. Qed.
Print Assumptions C09_unison.

Theorem C09_octave : forall p d cp,
  assoc_str (ap_name p) chromas = Some cp ->
  to_transposed p (iv "octave") d = Some {| ap_name := ap_name p; ap_octave := ap_octave p + sgn d |}.
Proof. exact octave_keeps_name. Qed.
Print Assumptions C09_octave.

Theorem C09_fourth_fifth : forall p d q r,
  to_transposed p (iv "P4") d = Some q -> to_transposed q (iv "P5") d = Some r ->
  to_transposed p (iv "octave") d = Some r.
Proof. exact fourth_then_fifth_is_octave. Qed.
Print Assumptions C09_fourth_fifth.

Theorem C09_fails_only_on_gap : forall p k d cp,
  assoc_str (ap_name p) chromas = Some cp ->
  (to_transposed p k d = None <-> (chroma_base * ap_octave p + cp + sgn d * k) mod chroma_base = 22).
Proof. exact fails_only_on_22. Qed.
Print Assumptions C09_fails_only_on_gap.

Theorem C09_available_intervals :
  List.length available_intervals = List.length intervals /\ names_distinct = true.
Proof. split; [exact available_intervals_count | exact interval_names_distinct]. Qed.
Print Assumptions C09_available_intervals.

(* obligation regenerated from the source on every run: the code this property runs through keeps exactly the state the
   model knows (no new attribute, class-level table, module-level binding or caching decorator), see proofs/State*Proofs.v *)
From KV Require Import StateGen StateBase StatePitchProofs.
Theorem C09_state_as_modelled : state_pitch = modelled_state_pitch.
Proof. exact state_pitch_as_modelled. Qed.
Print Assumptions C09_state_as_modelled.
