(* C20 - File and command-line paths equal the in-memory API.  Property theorems only, PURE PART:
   the two line readers of the importer model coincide, hence load = loads, for every byte string free of the
   separators only str.splitlines knows.  open(), encodings, makedirs, argparse, glob and process behaviour are
   outside any Gallina model: they are decided by the correspondence run on real files and subprocesses. *)
From Coq Require Import List String.
From KV Require Import Strings Importer LineReaderProofs.

Theorem C20_file_rows_equal_text_rows : forall s, plain (chars_of_string s) = true -> rows_of_file s = rows_of_text s.
Proof. exact file_equals_text. Qed.
Print Assumptions C20_file_rows_equal_text_rows.

Theorem C20_load_equals_loads : forall bad s, plain (chars_of_string s) = true -> load_file bad s = loads bad s.
Proof. exact load_equals_loads. Qed.
Print Assumptions C20_load_equals_loads.

From KV Require Import ReaderGen.
Theorem C20_readers_as_modelled :
  text_lines_expr = "text.splitlines()"%string /\ same_args text_reader_args modelled_reader_args = true /\
  same_args file_reader_args modelled_reader_args = true /\ assoc_str "newline" file_open_args = Some "''"%string.
Proof. exact readers_as_modelled. Qed.
Print Assumptions C20_readers_as_modelled.

(* obligation regenerated from the source on every run: the code this property runs through keeps exactly the state the
   model knows (no new attribute, class-level table, module-level binding or caching decorator), see proofs/State*Proofs.v *)
From KV Require Import StateGen StateBase StateImportProofs StateExportProofs.
Theorem C20_state_as_modelled : state_import = modelled_state_import /\ state_export = modelled_state_export.
Proof. exact (conj state_import_as_modelled state_export_as_modelled). Qed.
Print Assumptions C20_state_as_modelled.

(* dump then load: the text dumps returns (= what dump writes, monitor) is read by the FILE reader as exactly the rows
   the exporter rendered, cell for cell (rows made only of "", "*", "." are not written) - for every document, every
   option set and whatever the cells hold besides tab / LF / CR; hence load(dump(d)) imports from the exported grid *)
From KV Require Import Token Exporter ReadBackProofs.
Theorem C20_dump_then_load_reads_exported_rows : forall bad d o rows, export_rows d o = Ok rows ->
  (forall r c, In r rows -> In c r -> cell_ok c = true) ->
  exists text, dumps d o = Ok text /\
    load_file bad text = match run_rows bad init_state (filter (fun r => negb (empty_row r)) rows) with
                         | IOk s => IOk (i_doc s) | IErr e => IErr e | IOut => IOut end.
Proof. exact dumps_then_load. Qed.
Print Assumptions C20_dump_then_load_reads_exported_rows.
