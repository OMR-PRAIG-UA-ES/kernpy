(* C01 - Normalised export is a fixed point of import-then-export.  Property theorems only.
   Proved here: canonicity of the normal form on the listener/export model (every list of signifier
   characters, every category filter); the fixed point for canonical notes, rests and chords; and at document level for
   single-spine documents and for normal-form documents of any spine structure.  That the export of an ARBITRARY
   document is such a normal-form text is decided by the correspondence of the importer/exporter model with kernpy
   plus the monitors (DESIGN.md, C01). *)
From Coq Require Import List String Permutation.
From KV Require Import Strings CatGen Token KernTok TokenProofs CanonProofs.
Import ListNotations.

(* the listener's signifier list, once sorted for export, is a function of the SET of signifier characters:
   order, position (slot) and repetition are irrelevant *)
Theorem C01_canonical_signifiers : forall l1 l2, same_chars l1 l2 ->
  stable_sort sub_full_leb (add_decos [] l1) = stable_sort sub_full_leb (add_decos [] l2).
Proof. exact canonical_decorations. Qed.
Print Assumptions C01_canonical_signifiers.

Theorem C01_canonical_export : forall keep e1 e2 pd l1 l2, same_chars l1 l2 ->
  export_noterest keep None {| nr_enc := e1; nr_pd := pd; nr_deco := add_decos [] l1 |}
  = export_noterest keep None {| nr_enc := e2; nr_pd := pd; nr_deco := add_decos [] l2 |}.
Proof. exact canonical_export. Qed.
Print Assumptions C01_canonical_export.

Theorem C01_order_and_repetition_irrelevant :
  (forall l1 l2, Permutation l1 l2 -> same_chars l1 l2) /\
  (forall l c, In c l -> same_chars (c :: l) l) /\
  (forall a b, same_chars (a ++ b) (b ++ a)).
Proof. exact (conj same_chars_perm (conj same_chars_dup same_chars_app_comm)). Qed.
Print Assumptions C01_order_and_repetition_irrelevant.

(* export never invents, drops or alters a sub-part: the sorted lists are permutations of the filtered ones *)
Theorem C01_sort_is_permutation : forall (l : list subtoken),
  Permutation (stable_sort sub_full_leb l) l /\ Permutation (stable_sort sub_cat_leb l) l.
Proof. intros l. split; apply stable_sort_perm. Qed.
Print Assumptions C01_sort_is_permutation.

(* parser correctness on canonical note text: for EVERY well-formed note (any digits, optional %n, any number of dots,
   optional grace / appoggiatura mark, any pitch letter and octave, any accidental with or without display suffix, any
   duplicate-free list of stand-alone signifiers) the scanner + listener, run on duration ++ pitch ++ accidental ++
   signifiers, consume the whole text and return exactly the note's sub-tokens - so re-importing the normal form of a
   single note yields the same token contents (no error, nothing shortened, nothing moved) *)
From KV Require Import ScanProofs.
Theorem C01_reimport_of_canonical_note : forall n, note_ok n -> kern_recognise (str (print_note n)) = KTok (note_token n).
Proof. exact recognise_print_note. Qed.
Print Assumptions C01_reimport_of_canonical_note.

(* the normal form of a single note is a fixed point: the kern export of a canonical note is its canonical text, the
   recogniser reads that text back as the same token (no error, whole text consumed), and exporting again gives the
   same text - for EVERY well-formed note whose signifiers are in canonical order *)
From KV Require Import ExportFixedProofs Tokenizers.
Theorem C01_note_fixed_point : forall n, note_ok n -> canonical_order n ->
  exists text, kern_tokenize all_cats (note_token n) = Ok text /\
               kern_recognise text = KTok (note_token n) /\
               (forall t', kern_recognise text = KTok t' -> kern_tokenize all_cats t' = Ok text).
Proof. intros n Hok Hs. exact (export_import_export _ _ (kern_export_canonical_note n Hok Hs) (recognise_print_note n Hok)). Qed.
Print Assumptions C01_note_fixed_point.

Theorem C01_export_of_canonical_note : forall n, note_ok n -> canonical_order n ->
  kern_tokenize all_cats (note_token n) = Ok (str (print_note n)).
Proof. exact kern_export_canonical_note. Qed.
Print Assumptions C01_export_of_canonical_note.

(* obligation regenerated from the source on every run: the code this property runs through keeps exactly the state the
   model knows (no new attribute, class-level table, module-level binding or caching decorator), see proofs/State*Proofs.v *)
From KV Require Import StateGen StateBase StateImportProofs StateTokensProofs StateExportProofs.
Theorem C01_state_as_modelled : state_import = modelled_state_import /\ state_tokens = modelled_state_tokens /\ state_export = modelled_state_export.
Proof. exact (conj state_import_as_modelled (conj state_tokens_as_modelled state_export_as_modelled)). Qed.
Print Assumptions C01_state_as_modelled.

(* the same for RESTS: for every well-formed rest (any duration incl. rational / dotted / grace marks, duplicate-free
   stand-alone rest signifiers) the recogniser reads the canonical text back as exactly that rest, and the normal form is
   a fixed point of export - import - export *)
From KV Require Import OptGen RestProofs RestFixedProofs.
Theorem C01_reimport_of_canonical_rest : forall r, rest_ok r -> kern_recognise (str (print_rest r)) = KTok (rest_token r).
Proof. exact recognise_print_rest. Qed.
Print Assumptions C01_reimport_of_canonical_rest.
Theorem C01_rest_fixed_point : forall r, rest_ok r -> rest_canonical_order r ->
  exists text, kern_tokenize all_cats (rest_token r) = Ok text /\
               kern_recognise text = KTok (rest_token r) /\
               (forall t', kern_recognise text = KTok t' -> kern_tokenize all_cats t' = Ok text).
Proof. intros r Hok Hs. exact (export_import_export _ _ (kern_export_canonical_rest r Hok Hs) (recognise_print_rest r Hok)). Qed.
Print Assumptions C01_rest_fixed_point.

(* and for CHORDS of any number of notes: on the canonical text (notes separated by single blanks, each with its own
   duration and the chord's signifiers) the recogniser consumes everything and returns exactly these notes, in order *)
From KV Require Import ChordProofs.
Theorem C01_reimport_of_canonical_chord : forall D notes, 2 <= List.length notes -> chord_ok D notes ->
  kern_recognise (str (print_chord notes)) = KTok (TChord (str (print_chord notes)) (map (chord_note D) notes)).
Proof. exact recognise_print_chord. Qed.
Print Assumptions C01_reimport_of_canonical_chord.

(* ... and the fixed point itself for chords: the kern export of the chord token read from the canonical chord text is
   that text again - export o import o export = export for chords of any number of notes (each note in canonical order,
   all notes carrying the chord's signifiers) *)
From KV Require Import ChordFixedProofs.
Theorem C01_chord_fixed_point : forall D notes, 2 <= List.length notes -> chord_ok D notes -> Forall canonical_order notes ->
  match kern_recognise (str (print_chord notes)) with
  | KTok t => kern_tokenize all_cats t = Ok (str (print_chord notes))
  | KOut => False
  end.
Proof. exact chord_export_fixed_point. Qed.
Print Assumptions C01_chord_fixed_point.

(* DOCUMENT level, single-spine **kern documents.  A cell is in normal form when it is the export of its own token
   (canonical notes are: C01_canonical_note_is_normal; the same holds for whatever else the fixed-point theorems cover).
   For every such document - a header line, ANY number of cells in normal form, the terminator - the importer builds one
   stage per line holding that cell's token, the default export is the document's own grid, and the exported TEXT is
   read, imported and exported to itself: export o import = identity, hence export o import o export = export. *)
From KV Require Import Importer Exporter LineReaderProofs SingleSpineProofs.
Theorem C01_single_spine_document_fixed_point : forall bad cells,
  Forall (normal_cell bad) cells -> (forall c, In c cells -> cell_ok c = true) ->
  let text := render_rows (one_spine cells) in
  exists d, load_file bad text = IOk d /\ dumps d default_opts = Ok text /\
            (plain (chars_of_string text) = true -> loads bad text = IOk d).
Proof. exact one_spine_text_fixed_point. Qed.
Print Assumptions C01_single_spine_document_fixed_point.

Theorem C01_canonical_note_is_normal : forall bad n, note_ok n -> canonical_order n ->
  mem_str (str (print_note n)) bad = false -> normal_cell bad (str (print_note n)).
Proof. exact canonical_note_is_normal. Qed.
Print Assumptions C01_canonical_note_is_normal.

(* the cells the fixed-point theorems cover are in normal form: canonical rests, canonical chords, and every cell the
   recogniser keeps as one simple token carrying its own text (interpretations such as clefs, meters, keys ...) *)
Theorem C01_canonical_rest_is_normal : forall bad r, rest_ok r -> rest_canonical_order r ->
  mem_str (str (print_rest r)) bad = false -> normal_cell bad (str (print_rest r)).
Proof. exact canonical_rest_is_normal. Qed.
Print Assumptions C01_canonical_rest_is_normal.

Theorem C01_canonical_chord_is_normal : forall bad D notes, 2 <= List.length notes -> chord_ok D notes ->
  Forall canonical_order notes -> mem_str (str (print_chord notes)) bad = false -> normal_cell bad (str (print_chord notes)).
Proof. exact canonical_chord_is_normal. Qed.
Print Assumptions C01_canonical_chord_is_normal.

Theorem C01_verbatim_cell_is_normal : forall bad c k cls, plain_cell c -> c <> ""%string -> mem_str c bad = false ->
  kern_recognise c = KTok (TSimple c k cls) -> strip_separators c = c -> mem_str c nullish_tokens = false ->
  normal_cell bad c.
Proof. exact verbatim_cell_is_normal. Qed.
Print Assumptions C01_verbatim_cell_is_normal.

(* DOCUMENT level, ANY spine structure - several spines of any supported type, splits, joins, early ends, comments: when
   every cell is in normal form under the header that governs it (it is the export of its own token: canonical notes,
   rests, chords, interpretations kept as simple tokens, spine operators, headers, separator-free comments), the default
   export of the imported document is the source grid itself minus the '!!' lines and the all-null lines.  With
   C03_export_text_is_the_exported_grid: export o import = identity on such texts, hence export o import o export = export. *)
From KV Require Import GridTokensProofs GridIdentityProofs.
Theorem C01_normal_documents_are_fixed_points : forall bad text d, loads bad text = IOk d ->
  forall sts, d_stages d = [0] :: sts ->
  rows_normal bad d sts (filter nonempty_row (rows_of_text text)) ->
  export_rows d default_opts = Ok (filter keep_row (map row_text (filter nonempty_row (rows_of_text text)))).
Proof. exact export_of_normal_document. Qed.
Print Assumptions C01_normal_documents_are_fixed_points.
