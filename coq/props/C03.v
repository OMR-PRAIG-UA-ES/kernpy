(* C03 - Export conserves the score content cell for cell.  Property theorems only: token level, the exported grid
   = the grid of the stages, read-back of the exported text; the remaining grid clauses (every cell against the
   generator's own description) are decided by correspondence + the generator's oracle, DESIGN.md C03. *)
From Coq Require Import List String Permutation.
From KV Require Import Strings CatGen Cat EncGen Token Tokenizers TokenProofs.
Import ListNotations.

(* a token that is not a note, rest or chord is exported as its own text, whatever the filter / callback *)
Theorem C03_non_note_verbatim : forall keep conv t,
  match t with TNoteRest _ | TChord _ _ => True | _ => export_token keep conv t = Ok (tok_enc t) end.
Proof. exact simple_export_verbatim. Qed.
Print Assumptions C03_non_note_verbatim.

(* with the default category set no sub-part of a note is deleted ... *)
Theorem C03_default_keeps_every_part : forall n, filter_note (keep_of (valid None None)) n = n.
Proof. exact keep_all_is_identity. Qed.
Print Assumptions C03_default_keeps_every_part.

(* ... and the exported sub-parts are a permutation of the note's sub-parts (nothing invented or dropped) *)
Theorem C03_parts_conserved : forall (l : list subtoken),
  Permutation (stable_sort sub_cat_leb l) l /\ Permutation (stable_sort sub_full_leb l) l.
Proof. intros l. split; apply stable_sort_perm. Qed.
Print Assumptions C03_parts_conserved.

(* text without separator characters is the same in every encoding *)
Theorem C03_same_in_all_encodings : forall e cats clef t,
  match t with TNoteRest _ | TChord _ _ => True
  | _ => strip_separators (tok_enc t) = tok_enc t -> bekern_of_ekern (tok_enc t) = tok_enc t ->
         strip_token_separator (tok_enc t) = tok_enc t ->
         (e = E_agnosticKern \/ e = E_agnosticExtendedKern -> match clef with Some ce => Gkern.create_clef ce <> None | None => True end) ->
         tokenize e cats clef t = Ok (tok_enc t)
  end.
Proof. exact non_note_same_in_all_encodings. Qed.
Print Assumptions C03_same_in_all_encodings.

(* a note written in canonical order is imported with exactly its duration marks, pitch letters, accidental (with
   display suffix) and signifiers - nothing invented, dropped or altered - and exported as the same text *)
From KV Require Import KernTok ScanProofs ExportFixedProofs.
Theorem C03_note_parts_conserved : forall n, note_ok n -> kern_recognise (str (print_note n)) = KTok (note_token n).
Proof. exact recognise_print_note. Qed.
Print Assumptions C03_note_parts_conserved.

Theorem C03_note_export_verbatim : forall n, note_ok n -> canonical_order n ->
  kern_tokenize all_cats (note_token n) = Ok (str (print_note n)).
Proof. exact kern_export_canonical_note. Qed.
Print Assumptions C03_note_export_verbatim.

(* obligation regenerated from the source on every run: the code this property runs through keeps exactly the state the
   model knows (no new attribute, class-level table, module-level binding or caching decorator), see proofs/State*Proofs.v *)
From KV Require Import StateGen StateBase StateImportProofs StateTokensProofs StateExportProofs.
Theorem C03_state_as_modelled : state_import = modelled_state_import /\ state_tokens = modelled_state_tokens /\ state_export = modelled_state_export.
Proof. exact (conj state_import_as_modelled (conj state_tokens_as_modelled state_export_as_modelled)). Qed.
Print Assumptions C03_state_as_modelled.

(* same grid: when every spine is selected, the body of the export is the grid of the stages - one cell per node of the
   stage, in order - with exactly the empty rows (global-comment stages) and the all-null rows removed; nothing is
   invented, dropped or moved to another line or column.  For every document, stage range and option set. *)
From KV Require Import Importer Exporter ExporterProofs.
Theorem C03_export_is_the_stage_grid : forall d o n a,
  (forall k id, k < n -> In id (nth (a + k) (d_stages d) []) -> spine_selected o (header_type d id) = true) ->
  forall rows, main_rows d o a n = Ok rows ->
  exists cells, (forall k, k < n -> row_cells d (o_cats o) (o_enc o) (nth (a + k) (d_stages d) []) = Ok (cells k)) /\
                rows = filter kept_row (map cells (seq 0 n)) /\
                (forall k, k < n -> List.length (cells k) = List.length (nth (a + k) (d_stages d) [])).
Proof. exact full_selection_grid. Qed.
Print Assumptions C03_export_is_the_stage_grid.

(* a rest keeps its duration marks, the rest letter and exactly its signifiers: import of the canonical text yields
   exactly these sub-parts, and the default export prints them back verbatim *)
From KV Require Import RestProofs RestFixedProofs.
Theorem C03_rest_export_verbatim : forall r, rest_ok r -> rest_canonical_order r ->
  kern_recognise (str (print_rest r)) = KTok (rest_token r) /\ kern_tokenize all_cats (rest_token r) = Ok (str (print_rest r)).
Proof. intros r H1 H2. exact (conj (recognise_print_rest r H1) (kern_export_canonical_rest r H1 H2)). Qed.
Print Assumptions C03_rest_export_verbatim.

(* no note of a chord is lost, merged or altered by the import: the canonical chord text is read back as exactly its
   notes (each with its duration marks, pitch letters, accidental and the chord's signifiers), for any number of notes *)
From KV Require Import ChordProofs.
Theorem C03_chord_notes_conserved : forall D notes, 2 <= List.length notes -> chord_ok D notes ->
  kern_recognise (str (print_chord notes)) = KTok (TChord (str (print_chord notes)) (map (chord_note D) notes)).
Proof. exact recognise_print_chord. Qed.
Print Assumptions C03_chord_notes_conserved.

(* the exported TEXT holds the exported grid: reading back what the exporter writes returns its rows cell for cell
   (rows made only of "", "*", "." are not written), whatever the cells hold besides tab / LF / CR *)
From KV Require Import LineReaderProofs ReadBackProofs.
Theorem C03_export_text_is_the_exported_grid : forall rows, (forall r c, In r rows -> In c r -> cell_ok c = true) ->
  rows_of_file (render_rows rows) = filter (fun r => negb (empty_row r)) rows /\
  (plain (chars_of_string (render_rows rows)) = true ->
   rows_of_text (render_rows rows) = filter (fun r => negb (empty_row r)) rows).
Proof. intros rows H. exact (conj (export_read_back_file rows H) (export_read_back_text rows H)). Qed.
Print Assumptions C03_export_text_is_the_exported_grid.

(* and the canonical chord is exported verbatim: its notes joined by single blanks, each as a single note is exported *)
From KV Require Import ChordFixedProofs.
Theorem C03_chord_export_verbatim : forall D notes, notes <> [] -> chord_ok D notes -> Forall canonical_order notes ->
  kern_tokenize all_cats (TChord (str (print_chord notes)) (map (chord_note D) notes)) = Ok (str (print_chord notes)).
Proof. intros D notes _. apply kern_export_canonical_chord. Qed.
Print Assumptions C03_chord_export_verbatim.

(* DOCUMENT level, single-spine **kern documents: whatever the cells are (notes, rests, chords, barlines,
   interpretations - any cell the importer accepts that is no header, spine operator or comment), the default export is
   the header, then for every line the export of the token of that line's cell, in order, then the terminator: nothing
   dropped, invented or moved (cells whose token is hidden or exports to a null are outside this statement) *)
From KV Require Import SingleSpineProofs.
Theorem C03_single_spine_export_is_cell_by_cell : forall bad cells toks outs,
  Forall2 (fun c t => plain_cell c /\ import_cell bad "**kern" c = RTok t) cells toks -> Forall2 good toks outs ->
  exists s, run_rows bad init_state (one_spine cells) = IOk s /\ export_rows (i_doc s) default_opts = Ok (one_spine outs).
Proof. exact one_spine_export. Qed.
Print Assumptions C03_single_spine_export_is_cell_by_cell.

(* the theorem of C01_normal_documents_are_fixed_points read as C03: nothing dropped, invented or moved - for every
   imported document whose cells are in normal form under the headers that govern them, whatever its spine structure,
   the exported grid IS the source grid minus the '!!' lines and the all-null lines *)
From KV Require Import GridTokensProofs GridIdentityProofs.
Theorem C03_normal_document_exports_its_own_grid : forall bad text d, loads bad text = IOk d ->
  forall sts, d_stages d = [0] :: sts ->
  rows_normal bad d sts (filter nonempty_row (rows_of_text text)) ->
  export_rows d default_opts = Ok (filter keep_row (map row_text (filter nonempty_row (rows_of_text text)))).
Proof. exact export_of_normal_document. Qed.
Print Assumptions C03_normal_document_exports_its_own_grid.
