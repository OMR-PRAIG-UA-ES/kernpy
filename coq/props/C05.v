(* C05 - Category filtering removes exactly the unselected material.  Property theorems only. *)
From Coq Require Import List.
From KV Require Import Strings Cat CatProofs Token Tokenizers TokenProofs.
Import ListNotations.

(* exporting a note with a filter = exporting the note from which the unselected sub-parts are deleted *)
Theorem C05_filter_is_deletion : forall keep n,
  export_noterest keep None n = export_noterest (fun _ => true) None (filter_note keep n).
Proof. exact export_filter_is_deletion. Qed.
Print Assumptions C05_filter_is_deletion.

(* selected material is never altered or reordered: filtering commutes with both sorts of the export *)
Theorem C05_selected_keep_their_order : forall keep n,
  stable_sort sub_cat_leb (filter (fun s => keep (st_cat s)) (nr_pd n))
  = filter (fun s => keep (st_cat s)) (stable_sort sub_cat_leb (nr_pd n)) /\
  stable_sort sub_full_leb (filter (fun s => keep (st_cat s)) (nr_deco n))
  = filter (fun s => keep (st_cat s)) (stable_sort sub_full_leb (nr_deco n)).
Proof. exact filtered_parts_are_subsequence. Qed.
Print Assumptions C05_selected_keep_their_order.

(* include = all and exclude = nothing are the identity *)
Theorem C05_identity : forall n, filter_note (keep_of (valid None None)) n = n.
Proof. exact keep_all_is_identity. Qed.
Print Assumptions C05_identity.

(* the selected set is the include categories with their descendants minus the exclude categories with theirs *)
Theorem C05_selected_set : forall inc exc c, In c (valid (Some inc) (Some exc)) <-> selected inc exc c.
Proof. exact valid_spec. Qed.
Print Assumptions C05_selected_set.

(* any other token is untouched by the filter inside export (the gate that replaces it is in the exporter) *)
Theorem C05_other_tokens_untouched : forall keep conv t,
  match t with TNoteRest _ | TChord _ _ => True | _ => export_token keep conv t = Ok (tok_enc t) end.
Proof. exact simple_export_verbatim. Qed.
Print Assumptions C05_other_tokens_untouched.

(* obligation regenerated from the source on every run: the code this property runs through keeps exactly the state the
   model knows (no new attribute, class-level table, module-level binding or caching decorator), see proofs/State*Proofs.v *)
From KV Require Import StateGen StateBase StateExportProofs StateTokensProofs.
Theorem C05_state_as_modelled : state_export = modelled_state_export /\ state_tokens = modelled_state_tokens.
Proof. exact (conj state_export_as_modelled state_tokens_as_modelled). Qed.
Print Assumptions C05_state_as_modelled.
