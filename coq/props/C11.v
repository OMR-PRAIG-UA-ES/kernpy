(* C11 - Category algebra follows the documented tree.  Property theorems only. *)
From Coq Require Import List Permutation.
From KV Require Import CatGen Cat CatProofs.
Import ListNotations.

(* the hierarchy literal of tokens.py IS the tree documented in README.md *)
Theorem C11_matches_documentation : hierarchy = documented.
Proof. exact hierarchy_documented. Qed.
Print Assumptions C11_matches_documentation.

(* a forest in which each category occurs exactly once *)
Theorem C11_forest : NoDup all_nodes /\ Permutation all_nodes all_cats.
Proof. exact (conj forest_nodup forest_perm). Qed.
Print Assumptions C11_forest.

Theorem C11_single_parent : forall p q c, In (p, c) edges -> In (q, c) edges -> p = q.
Proof. exact parent_unique. Qed.
Print Assumptions C11_single_parent.

(* descendant test, children, subtree nodes and leaves agree with the tree, for every pair of categories *)
Theorem C11_is_child : forall p c, is_child p c = true <-> desc p c.
Proof. exact is_child_spec. Qed.
Print Assumptions C11_is_child.

Theorem C11_children : forall p c, In c (children p) <-> In (p, c) edges.
Proof. exact children_spec. Qed.
Print Assumptions C11_children.

Theorem C11_nodes : forall p c, In c (nodes p) <-> desc p c /\ c <> p.
Proof. exact nodes_spec. Qed.
Print Assumptions C11_nodes.

Theorem C11_leaves : forall p c, In c (leaves p) <-> desc p c /\ c <> p /\ is_leaf c.
Proof. exact leaves_spec. Qed.
Print Assumptions C11_leaves.

(* for ALL include / exclude collections (any length, any repetition):
   selected = include with descendants minus exclude with descendants *)
Theorem C11_valid : forall inc exc c, In c (valid (Some inc) (Some exc)) <-> selected inc exc c.
Proof. exact valid_spec. Qed.
Print Assumptions C11_valid.

Theorem C11_valid_defaults :
  (forall exc c, In c (valid None (Some exc)) <-> ~ (exists b, In b exc /\ desc b c)) /\
  (forall inc c, In c (valid (Some inc) None) <-> exists a, In a inc /\ desc a c) /\
  (forall c, In c (valid None None)).
Proof. exact (conj valid_none_include (conj valid_none_exclude valid_none_none)). Qed.
Print Assumptions C11_valid_defaults.

(* match is true exactly when the category or one of its descendants is selected *)
Theorem C11_match : forall c inc exc, matches c inc exc = true <-> exists d, desc c d /\ In d (valid inc exc).
Proof. exact matches_spec. Qed.
Print Assumptions C11_match.

(* list, tuple, set, repeated members: only the set of the arguments matters *)
Theorem C11_argument_shape : forall inc inc' exc exc', same_set inc inc' -> same_set exc exc' ->
  canon (valid (Some inc) (Some exc)) = canon (valid (Some inc') (Some exc')).
Proof. exact valid_same_set. Qed.
Print Assumptions C11_argument_shape.

(* obligation regenerated from the source on every run: the queries keep no state between calls and never write to
   their arguments (syntactic store-site analysis of TokenCategory / TokenCategoryHierarchyMapper, see DESIGN C14) *)
From KV Require Import EffectsGen PurityProofs.
Theorem C11_algebra_is_stateless : forallb ss_fresh category_store_sites = true /\ 3 <= List.length category_store_sites.
Proof. exact category_algebra_stateless. Qed.
Print Assumptions C11_algebra_is_stateless.

(* obligation regenerated from the source on every run: the code this property runs through keeps exactly the state the
   model knows (no new attribute, class-level table, module-level binding or caching decorator), see proofs/State*Proofs.v *)
From KV Require Import StateGen StateBase StateTokensProofs.
Theorem C11_state_as_modelled : state_tokens = modelled_state_tokens.
Proof. exact state_tokens_as_modelled. Qed.
Print Assumptions C11_state_as_modelled.
