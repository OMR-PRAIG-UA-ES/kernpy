(* C19 - Concatenation indexes address the fragments.  Property theorems only (every list of fragments). *)
From Coq Require Import List.
From KV Require Import Importer Api ImporterProofs MeasureStartProofs ApiProofs.
Import ListNotations.

(* one pair per fragment, consecutive from 0, the last 'to' is the measure count of the result *)
Theorem C19_indexes : forall bad frags sep d idx, concat bad frags sep = IOk (d, idx) ->
  consecutive 0 idx /\ List.length idx = List.length frags /\
  match rev idx with (_, b) :: _ => b = List.length (d_mst d) | [] => False end.
Proof. intros bad frags sep d idx H. apply (concat_spec H). Qed.
Print Assumptions C19_indexes.

(* the result is the import of the joined text (separator before every fragment, as concat builds it) *)
Theorem C19_same_document : forall bad frags sep d idx, concat bad frags sep = IOk (d, idx) ->
  loads bad (joined sep frags) = IOk d.
Proof. intros bad frags sep d idx H. apply (concat_spec H). Qed.
Print Assumptions C19_same_document.

(* why the pairs address the fragments: the measure index of a prefix of the rows is a prefix of the index of all *)
Theorem C19_prefix_measures : forall bad r1 r2 s1 s,
  run_rows bad init_state r1 = IOk s1 -> run_rows bad init_state (r1 ++ r2) = IOk s ->
  exists ext, d_mst (i_doc s) = d_mst (i_doc s1) ++ ext.
Proof. exact prefix_measures. Qed.
Print Assumptions C19_prefix_measures.

Theorem C19_rows_compose : forall bad r1 r2 s,
  run_rows bad s (r1 ++ r2) = ibind (run_rows bad s r1) (fun s' => run_rows bad s' r2).
Proof. exact run_rows_app. Qed.
Print Assumptions C19_rows_compose.

(* obligation regenerated from the source on every run: the code this property runs through keeps exactly the state the
   model knows (no new attribute, class-level table, module-level binding or caching decorator), see proofs/State*Proofs.v *)
From KV Require Import StateGen StateBase StateImportProofs StateDocumentProofs.
Theorem C19_state_as_modelled : state_import = modelled_state_import /\ state_document = modelled_state_document.
Proof. exact (conj state_import_as_modelled state_document_as_modelled). Qed.
Print Assumptions C19_state_as_modelled.
