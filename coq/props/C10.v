(* C10 - Agnostic encoding depends only on staff position and accidental.  Property theorems only: pitch level, and
   which clef is in force at a node of an imported document; the composition with the export is decided by the
   correspondence run, see DESIGN.md. *)
From Coq Require Import List String BinInt.
From KV Require Import Strings ClefGen PitchSpec Gkern GkernProofs.
Import ListNotations.
Open Scope Z_scope.

(* every clef class, letter, alteration -3..3 and EVERY octave in Z: the agnostic spelling is the
   Humdrum pitch on the same line or space under a G2 clef *)
Theorem C10_same_position : forall cls i ob l a o,
  In cls clef_classes -> bottom_params cls = Some (i, ob) -> In l letters_z -> In a alts7 ->
  pitch_to_gkern (spec_pitch l a o) cls = Some (spell_dia (dia l o - dia i ob + dia 2 4) a).
Proof. intros cls i ob l a o _ Hb Hl _. exact (gkern_exact cls i ob l a o Hb Hl). Qed.
Print Assumptions C10_same_position.

Theorem C10_g2_identity : forall l a o, In l letters_z -> In a alts7 ->
  pitch_to_gkern (spec_pitch l a o) "GClef" = Some (spell l a o).
Proof. intros l a o Hl _. exact (gkern_g2_identity l a o Hl). Qed.
Print Assumptions C10_g2_identity.

Theorem C10_steps : forall cls i ob l a o l' o' k,
  In cls clef_classes -> bottom_params cls = Some (i, ob) -> In l letters_z -> In l' letters_z -> In a alts7 ->
  dia l' o' = dia l o + k ->
  exists d, pitch_to_gkern (spec_pitch l a o) cls = Some (spell_dia d a) /\
            pitch_to_gkern (spec_pitch l' a o') cls = Some (spell_dia (d + k) a).
Proof. intros cls i ob l a o l' o' k _ Hb Hl Hl' _. exact (gkern_shift cls i ob l a o l' o' k Hb Hl Hl'). Qed.
Print Assumptions C10_steps.

Theorem C10_bottom_line_is_e : forall cls i ob, In cls clef_classes -> bottom_params cls = Some (i, ob) ->
  pitch_to_gkern (spec_pitch i 0 ob) cls = Some "e"%string.
Proof. intros cls i ob _. exact (gkern_bottom_is_e cls i ob). Qed.
Print Assumptions C10_bottom_line_is_e.

Theorem C10_accidental_carried : forall cls i ob l a o, In cls clef_classes -> bottom_params cls = Some (i, ob) ->
  In l letters_z -> In a alts7 ->
  exists letters, pitch_to_gkern (spec_pitch l 0 o) cls = Some letters /\
                  pitch_to_gkern (spec_pitch l a o) cls = Some (letters ++ kern_acc a)%string.
Proof. intros cls i ob l a o _ Hb Hl _. exact (gkern_accidental cls i ob l a o Hb Hl). Qed.
Print Assumptions C10_accidental_carried.

(* octave marks on the clef do not change the clef, hence not the position *)
Theorem C10_octave_marks_ignored : forall pre m post, forallb is_mark (chars_of_string m) = true ->
  create_clef_core (pre ++ m ++ post) = create_clef_core (pre ++ post).
Proof. exact create_clef_ignores_marks. Qed.
Print Assumptions C10_octave_marks_ignored.

Theorem C10_dispatch_total : forallb (fun row => match snd row with
    | Some cls => mem_str cls clef_classes | None => true end) clef_dispatch = true.
Proof. exact dispatch_total. Qed.
Print Assumptions C10_dispatch_total.

(* obligation regenerated from the source on every run: the code this property runs through keeps exactly the state the
   model knows (no new attribute, class-level table, module-level binding or caching decorator), see proofs/State*Proofs.v *)
From KV Require Import StateGen StateBase StatePitchProofs StateExportProofs.
Theorem C10_state_as_modelled : state_pitch = modelled_state_pitch /\ state_export = modelled_state_export.
Proof. exact (conj state_pitch_as_modelled state_export_as_modelled). Qed.
Print Assumptions C10_state_as_modelled.

(* document level, "each converted under the clef in force for that note": for EVERY text that imports, the clef the
   exporter hands to the agnostic conversion of a node (the "ClefToken" entry of its signature dictionary) is the
   NEAREST clef cell above it on its spine path - through splits and joins, up to the header - and there is none
   exactly when that path holds no clef cell *)
From KV Require Import Importer SigForceProofs.
Theorem C10_clef_in_force_is_nearest_above : forall bad text d, loads bad text = IOk d ->
  forall i, (i < List.length (d_nodes d))%nat -> forall cid,
  assoc_str "ClefToken" (n_sigs (get_node d i)) = Some cid <->
  (0 < cid /\ clear_path d "ClefToken" cid i /\ exists t, n_tok (get_node d cid) = Some t /\ is_sig_of "ClefToken" t = true)%nat.
Proof. intros bad text d H i Hi cid. exact (loads_sig_in_force bad text d H i Hi "ClefToken"%string cid). Qed.
Print Assumptions C10_clef_in_force_is_nearest_above.
