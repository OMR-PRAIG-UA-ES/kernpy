(* C12 - Malformed tokens are isolated, reported once and preserved.  Property theorems only.
   [recog] is any deterministic recogniser: (parse result, number of syntax errors reported). *)
From Coq Require Import List String.
From KV Require Import Strings CatGen SpineImp SpineImpProofs Token Importer ImporterProofs.
Import ListNotations.

(* the outcome for a cell never depends on which cells were parsed before it: every history, every start state *)
Theorem C12_history_independent : forall (T : Type) (recog : string -> option T * nat) h st,
  run_history T recog true st h = map (fun s => fst (kern_import T recog true 0 s)) h.
Proof. exact history_independent. Qed.
Print Assumptions C12_history_independent.

Theorem C12_any_order : forall (T : Type) (recog : string -> option T * nat) h1 h2 st1 st2 s,
  nth (List.length h1) (run_history T recog true st1 (h1 ++ [s])) (RErr ""%string) =
  nth (List.length h2) (run_history T recog true st2 (h2 ++ [s])) (RErr ""%string).
Proof. exact outcome_of_cell_fixed. Qed.
Print Assumptions C12_any_order.

(* the importer of the current source tree is the history-free one *)
Theorem C12_listener_fresh : kern_fresh_flag = Some true.
Proof. exact kern_listener_is_fresh. Qed.
Print Assumptions C12_listener_fresh.

Theorem C12_well_formed_kept : forall (T : Type) (recog : string -> option T * nat) s t,
  s <> ""%string -> recog s = (Some t, 0) -> forall st, fst (kern_import T recog true st s) = RKept t.
Proof. exact outcome_is_recogniser. Qed.
Print Assumptions C12_well_formed_kept.

Theorem C12_malformed_raises : forall (T : Type) (recog : string -> option T * nat) s,
  (fst (recog s) = None \/ 0 < snd (recog s)) -> forall st, exists e, fst (kern_import T recog true st s) = RErr e.
Proof. exact malformed_raises. Qed.
Print Assumptions C12_malformed_raises.

(* a sticky listener (the defect repaired by the fix: commit) violates the property: witness *)
Theorem C12_sticky_listener_refuted :
  run_history nat demo_recog false 0 ["4zz"; "4c"]%string <> map (fun s => fst (kern_import nat demo_recog false 0 s)) ["4zz"; "4c"]%string.
Proof. exact sticky_listener_refuted. Qed.
Print Assumptions C12_sticky_listener_refuted.

(* document level: the tree keeps its shape whatever cells are malformed (one stage per line, one node per cell) *)
Theorem C12_damage_keeps_the_grid : forall bad text d, loads bad text = IOk d ->
  stage_lengths d = 1 :: map cell_count (filter nonempty (rows_of_text text)).
Proof. intros bad text d H. exact (proj2 (loads_stage_count bad text d H)). Qed.
Print Assumptions C12_damage_keeps_the_grid.

(* document level, for EVERY text that imports (and every recogniser oracle): the error list is exactly the list of the
   ErrorToken nodes - each malformed cell is reported once, nothing else is reported - and every ErrorToken carries the
   number of its line (the stage of its node = the count of non-empty lines up to it) *)
From KV Require Import ErrorProofs.
Theorem C12_errors_reported_once_with_line : forall bad text d, loads bad text = IOk d ->
  NoDup (d_errors d) /\
  (forall id, In id (d_errors d) <-> id < List.length (d_nodes d) /\ exists e l, n_tok (get_node d id) = Some (TError e l)) /\
  (forall id e l, n_tok (get_node d id) = Some (TError e l) -> id < List.length (d_nodes d) -> l = n_stage (get_node d id)).
Proof. exact errors_reported_once. Qed.
Print Assumptions C12_errors_reported_once_with_line.

(* the recogniser model never builds an ErrorToken itself: only rejected cells become one *)
Theorem C12_only_rejected_cells_are_errors : forall bad h s t, import_cell bad h s = RTok t -> tok_not_error t = true.
Proof. exact import_cell_not_error. Qed.
Print Assumptions C12_only_rejected_cells_are_errors.

(* a malformed cell is exported verbatim under every selection, converter and encoding *)
Theorem C12_error_exported_verbatim : forall keep conv e l, export_token keep conv (TError e l) = Ok e.
Proof. exact error_token_verbatim. Qed.
Print Assumptions C12_error_exported_verbatim.

(* obligation regenerated from the source on every run: the code this property runs through keeps exactly the state the
   model knows (no new attribute, class-level table, module-level binding or caching decorator), see proofs/State*Proofs.v *)
From KV Require Import StateGen StateBase StateImportProofs.
Theorem C12_state_as_modelled : state_import = modelled_state_import.
Proof. exact state_import_as_modelled. Qed.
Print Assumptions C12_state_as_modelled.

(* "exactly one error per malformed cell, with its line number; every other token as without the damage": for EVERY text
   that imports, the tree holds the source grid (C02_tree_holds_the_source_grid), and in it a node is an ErrorToken
   exactly when its cell is an ordinary cell (no header, spine operator or comment) that the importer of its spine's header
   rejects - then it carries the cell text and the number of its non-blank line; together with
   C12_errors_reported_once_with_line (the error list is the list of the ErrorToken nodes) this is the clause *)
From KV Require Import GridTokensProofs.
Theorem C12_error_iff_rejected_cell : forall bad d r id c, cell_rel bad d r id c ->
  forall e l, n_tok (get_node d id) = Some (TError e l) <->
    (e = c /\ l = r /\ startswith "**" c = false /\ mem_str c spine_operations = false /\ startswith "!" c = false /\
     exists hid, n_header (get_node d id) = Some hid /\ import_cell bad (header_text d hid) c = RFail).
Proof. exact error_iff_rejected. Qed.
Print Assumptions C12_error_iff_rejected_cell.

Theorem C12_tree_holds_the_source_grid : forall bad text d, loads bad text = IOk d ->
  exists sts, d_stages d = [0] :: sts /\ rows_rel bad d 1 sts (filter nonempty_row (rows_of_text text)).
Proof. exact loads_grid. Qed.
Print Assumptions C12_tree_holds_the_source_grid.

(* the source grid above is what the two line readers of the CURRENT source cut out of the text / the file: their
   arguments (delimiter, no quoting, newline='') are regenerated on every run and compared with the modelled ones; with
   load_equals_loads the same tree, errors included, is built from a file holding the text *)
From KV Require Import ReaderGen LineReaderProofs.
Theorem C12_readers_as_modelled :
  text_lines_expr = "text.splitlines()"%string /\ same_args text_reader_args modelled_reader_args = true /\
  same_args file_reader_args modelled_reader_args = true /\ assoc_str "newline" file_open_args = Some "''"%string.
Proof. exact readers_as_modelled. Qed.
Print Assumptions C12_readers_as_modelled.

Theorem C12_file_import_is_string_import : forall bad s, plain (chars_of_string s) = true -> load_file bad s = loads bad s.
Proof. exact load_equals_loads. Qed.
Print Assumptions C12_file_import_is_string_import.
