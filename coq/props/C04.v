(* C04 - The six encodings are consistent views of one document.  Property theorems only. *)
From Coq Require Import List String.
From KV Require Import Strings EncGen Token Tokenizers TokenProofs.
Import ListNotations.

(* each plain encoding IS its extended counterpart with the separator characters removed, for every token,
   category selection and clef (nothing else differs) *)
Theorem C04_kern_of_ekern : forall cats t, kern_tokenize cats t = map_res strip_separators (ekern_tokenize cats t).
Proof. exact kern_is_stripped_ekern. Qed.
Print Assumptions C04_kern_of_ekern.
Theorem C04_bkern_of_bekern : forall cats t, bkern_tokenize cats t = map_res strip_token_separator (bekern_tokenize cats t).
Proof. exact bkern_is_stripped_bekern. Qed.
Print Assumptions C04_bkern_of_bekern.
Theorem C04_akern_of_aekern : forall cats clef t, akern_tokenize cats clef t = map_res strip_separators (aekern_tokenize cats clef t).
Proof. exact akern_is_stripped_aekern. Qed.
Print Assumptions C04_akern_of_aekern.
Theorem C04_bekern_of_ekern : forall cats t, bekern_tokenize cats t = map_res bekern_of_ekern (ekern_tokenize cats t).
Proof. exact bekern_is_reduced_ekern. Qed.
Print Assumptions C04_bekern_of_ekern.

(* the factory (table regenerated from tokenizers.py) gives each encoding exactly its tokenizer *)
Theorem C04_dispatch : forall e cats clef t,
  tokenize e cats clef t =
  match e with
  | E_eKern => ekern_tokenize cats t | E_normalizedKern => kern_tokenize cats t
  | E_bKern => bkern_tokenize cats t | E_bEkern => bekern_tokenize cats t
  | E_agnosticExtendedKern => aekern_tokenize cats clef t | E_agnosticKern => akern_tokenize cats clef t
  end.
Proof. exact tokenize_dispatch. Qed.
Print Assumptions C04_dispatch.

(* every spine header is '**' + encoding prefix + original type (prefix table regenerated from Encoding.prefix) *)
Theorem C04_header : forall e enc sp,
  header_for e (THeader enc sp) = Ok (THeader ("**" ++ expected_prefix e ++ drop 2 enc)%string sp).
Proof. exact header_prefix. Qed.
Print Assumptions C04_header.

(* non-note cells are identical in the six encodings (text free of separator characters) *)
Theorem C04_non_note_identical : forall e cats clef t,
  match t with TNoteRest _ | TChord _ _ => True
  | _ => strip_separators (tok_enc t) = tok_enc t -> bekern_of_ekern (tok_enc t) = tok_enc t ->
         strip_token_separator (tok_enc t) = tok_enc t ->
         (e = E_agnosticKern \/ e = E_agnosticExtendedKern -> match clef with Some ce => Gkern.create_clef ce <> None | None => True end) ->
         tokenize e cats clef t = Ok (tok_enc t)
  end.
Proof. exact non_note_same_in_all_encodings. Qed.
Print Assumptions C04_non_note_identical.

(* the basic encoding is the extended one with the signifiers removed NOTE BY NOTE: for every chord (any number of
   notes) and every category selection, both encodings list the same notes in the same order, joined by single
   spaces; the basic one keeps exactly the duration-and-pitch part of each.  No note is lost, merged or moved.
   [note_subs_ok]: the duration / pitch sub-token texts hold no space, no '@' and no byte 194 (the first of the
   decoration separator) and are not empty, the signifier ones hold no space (true of everything the parser builds). *)
From KV Require Import BekernProofs.
Theorem C04_chord_basic_is_note_by_note : forall cats enc notes, notes <> [] -> forallb note_subs_ok notes = true ->
  ekern_tokenize cats (TChord enc notes) = Ok (join " " (map (fun n => note_text (note_pair (keep_of cats) n)) notes)) /\
  bekern_tokenize cats (TChord enc notes) = Ok (join " " (map (fun n => fst (note_pair (keep_of cats) n)) notes)).
Proof. exact chord_bekern_note_by_note. Qed.
Print Assumptions C04_chord_basic_is_note_by_note.

Theorem C04_note_basic : forall cats n, note_subs_ok n = true ->
  ekern_tokenize cats (TNoteRest n) = Ok (note_text (note_pair (keep_of cats) n)) /\
  bekern_tokenize cats (TNoteRest n) = Ok (fst (note_pair (keep_of cats) n)).
Proof. exact note_bekern. Qed.
Print Assumptions C04_note_basic.

(* string level: the reduction keeps the number of notes of a space-separated cell text, for ANY number of notes
   ([note_clean]: no space inside a note, no byte 194 in its duration and pitch part, which does not end in '@') *)
Theorem C04_no_note_lost : forall notes, Forall note_clean notes -> notes <> [] ->
  List.length (split_char space (bekern_of_ekern (join " " (map note_text notes)))) = List.length notes.
Proof. exact bekern_keeps_every_note. Qed.
Print Assumptions C04_no_note_lost.

(* obligation regenerated from the source on every run: the code this property runs through keeps exactly the state the
   model knows (no new attribute, class-level table, module-level binding or caching decorator), see proofs/State*Proofs.v *)
From KV Require Import StateGen StateBase StateExportProofs StateTokensProofs.
Theorem C04_state_as_modelled : state_export = modelled_state_export /\ state_tokens = modelled_state_tokens.
Proof. exact (conj state_export_as_modelled state_tokens_as_modelled). Qed.
Print Assumptions C04_state_as_modelled.
