(* C02 - Import builds a spine tree that mirrors the text cell for cell.  Property theorems only.
   The theorems hold for every oracle [bad] about the recogniser and every text / list of rows. *)
From Coq Require Import List String.
From KV Require Import Strings Importer ImporterProofs.
Import ListNotations.

(* one stage per non-empty line (after the root stage) and one node per tab-separated cell,
   a single node for a global-comment line: for EVERY text on which the import succeeds *)
Theorem C02_stage_per_line_node_per_cell : forall bad text d, loads bad text = IOk d ->
  List.length (d_stages d) = S (List.length (filter nonempty (rows_of_text text))) /\
  stage_lengths d = 1 :: map cell_count (filter nonempty (rows_of_text text)).
Proof. exact loads_stage_count. Qed.
Print Assumptions C02_stage_per_line_node_per_cell.

Theorem C02_rows : forall bad rows s, run_rows bad init_state rows = IOk s ->
  stage_lengths (i_doc s) = 1 :: map cell_count (filter nonempty rows).
Proof. exact stages_mirror_rows. Qed.
Print Assumptions C02_rows.

(* a cell beyond the live spine paths is rejected (the step raises), whatever the cell is, a header apart (a ** cell hangs
   under no spine path) *)
Theorem C02_surplus_cell_rejected : forall bad row s icol col prev,
  i_prev s = Some prev -> List.length prev <= icol -> startswith "**" col = false ->
  forall r, step_cell bad row s icol col <> IOk r.
Proof. exact surplus_cell_rejected. Qed.
Print Assumptions C02_surplus_cell_rejected.

(* every imported document is a tree whose node ids are creation order: a parent precedes its children, every
   node is listed in the children of exactly its parent (once), the root has no parent and every other node has one *)
From KV Require Import TreeProofs.
Theorem C02_tree : forall bad text d, loads bad text = IOk d -> tree_ok d.
Proof. exact loads_tree_ok. Qed.
Print Assumptions C02_tree.

(* what one cell does (creation spec of add_node): the new node gets the next id, the given parent / header /
   last spine operator, and no existing node changes its identity, stage, token, parent, last spine operator or header *)
Theorem C02_add_node : forall d st p t lo sg h d' id, tree_ok d -> p < List.length (d_nodes d) ->
  add_node d st p t lo sg h = IOk (d', id) ->
  id = List.length (d_nodes d) /\ List.length (d_nodes d') = S id /\ tree_ok d' /\
  n_parent (get_node d' id) = Some p /\ n_tok (get_node d' id) = Some t /\ n_header (get_node d' id) = h /\
  n_stage (get_node d' id) = st /\ n_lastop (get_node d' id) = lo /\
  (forall i, i < id -> core (get_node d' i) = core (get_node d i) /\ n_header (get_node d' i) = n_header (get_node d i)).
Proof. exact add_node_spec. Qed.
Print Assumptions C02_add_node.

(* headers: a node that has a header points to a HeaderToken node created no later than itself and either is that
   header or inherits it from its parent, so every cell of a spine path carries the header of its column *)
Theorem C02_headers : forall bad text d, loads bad text = IOk d -> hdr_ok d.
Proof. exact loads_headers. Qed.
Print Assumptions C02_headers.

(* cell text is taken literally by BOTH line readers: for every grid of cells free of tab / LF / CR - quotes, commas,
   spaces and any other byte included - the rows read from the file are that grid, cell for cell; so are the rows read from
   the text when it holds none of the further line separators of str.splitlines ([plain]: VT, FF, FS, GS, RS, NEL, LS, PS) *)
From KV Require Import LineReaderProofs.
Theorem C02_file_cells_literal : forall eol grid, eol = String lf "" \/ eol = String cr (String lf "") -> forallb row_ok grid = true ->
  rows_of_file (unlines eol (map (join (String tab "")) grid)) = grid.
Proof. exact file_grid_literal. Qed.
Print Assumptions C02_file_cells_literal.
Theorem C02_text_cells_literal : forall eol grid, eol = String lf "" \/ eol = String cr (String lf "") -> forallb row_ok grid = true ->
  plain (chars_of_string (unlines eol (map (join (String tab "")) grid))) = true ->
  rows_of_text (unlines eol (map (join (String tab "")) grid)) = grid.
Proof. exact text_grid_literal. Qed.
Print Assumptions C02_text_cells_literal.
(* obligation on the source (regenerated by the translator): Importer.import_string / import_file configure their
   csv readers exactly as the model's row_of_line reads a line (tab delimiter, no quoting), on str.splitlines() / newline='' *)
From KV Require Import ReaderGen.
Theorem C02_readers_as_modelled :
  text_lines_expr = "text.splitlines()"%string /\ same_args text_reader_args modelled_reader_args = true /\
  same_args file_reader_args modelled_reader_args = true /\ assoc_str "newline" file_open_args = Some "''"%string.
Proof. exact readers_as_modelled. Qed.
Print Assumptions C02_readers_as_modelled.

(* obligation regenerated from the source on every run: the code this property runs through keeps exactly the state the
   model knows (no new attribute, class-level table, module-level binding or caching decorator), see proofs/State*Proofs.v *)
From KV Require Import StateGen StateBase StateImportProofs.
Theorem C02_state_as_modelled : state_import = modelled_state_import.
Proof. exact state_import_as_modelled. Qed.
Print Assumptions C02_state_as_modelled.

(* a HeaderToken node is its own header (and, by C02_headers, every other node that has a header has that of its parent) *)
From KV Require Import HeaderSelfProofs.
Theorem C02_header_nodes_are_their_own_header : forall bad text d, loads bad text = IOk d -> hself d.
Proof. exact loads_hself. Qed.
Print Assumptions C02_header_nodes_are_their_own_header.

(* every cell either reader hands to the importer is free of tab, LF and CR - for EVERY byte string; so a grid that was
   read can be written verbatim (cells joined by tabs, lines ended by LF) and read again: read . write . read = read,
   minus the rows the writer never writes (all cells "", "*" or ".") *)
From KV Require Import Exporter CleanCellsProofs.
Theorem C02_cells_are_free_of_separators : forall s row c,
  (In row (rows_of_file s) -> In c row -> cell_ok c = true) /\ (In row (rows_of_text s) -> In c row -> cell_ok c = true).
Proof. intros s row c. exact (conj (file_cells_clean s row c) (text_cells_clean s row c)). Qed.
Print Assumptions C02_cells_are_free_of_separators.

Theorem C02_read_write_read : forall s,
  rows_of_file (render_rows (rows_of_file s)) = filter (fun r => negb (empty_row r)) (rows_of_file s) /\
  rows_of_file (render_rows (rows_of_text s)) = filter (fun r => negb (empty_row r)) (rows_of_text s).
Proof. exact read_write_read. Qed.
Print Assumptions C02_read_write_read.

(* "one stage per non-empty line, one node per cell, each node carrying the token of ITS cell": for EVERY text that
   imports (any number of spines, splits, joins, comments, malformed cells, through either reader) stage k+1 is the k-th
   non-blank line, its nodes are that line's cells in order, and every node holds exactly the token of its source cell
   under the header of its own spine - the header token for a ** cell, the operator token for *^ *v *- *+ (and *x, vacuously:
   no text that holds it imports), the comment token for a ! cell, otherwise what the importer of the node's spine header
   builds from the cell text, or an ErrorToken with the cell text and the number of the line (blank lines not counted) when
   that importer rejects it; a !! line is one comment node *)
From KV Require Import GridTokensProofs.
Theorem C02_tree_holds_the_source_grid : forall bad text d,
  (loads bad text = IOk d ->
   exists sts, d_stages d = [0] :: sts /\ rows_rel bad d 1 sts (filter nonempty_row (rows_of_text text))) /\
  (load_file bad text = IOk d ->
   exists sts, d_stages d = [0] :: sts /\ rows_rel bad d 1 sts (filter nonempty_row (rows_of_file text))).
Proof. intros bad text d. exact (conj (loads_grid bad text d) (load_file_grid bad text d)). Qed.
Print Assumptions C02_tree_holds_the_source_grid.
