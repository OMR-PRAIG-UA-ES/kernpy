(* C15 - Transposing a document moves pitches and nothing else.  Property theorems only.
   Proved on the model of Document.to_transposed for every document: the tree keeps its shape, every token that
   is not a single note/rest is untouched, a note keeps durations, accidental sub-tokens and signifiers and its
   PITCH sub-token becomes transpose(pitch) - the arithmetic of C09.  The classes the property itself lists as
   explored (explicit accidentals, chord notes, state of the source afterwards) are findings; the last one is
   refuted on the model below, because clone() shares the nodes. *)
From Coq Require Import List String Ascii.
From KV Require Import CatGen Pitch Token Importer Exporter Api ApiProofs.
Import ListNotations.

Theorem C15_shape_kept : forall d iv dir r src, to_transposed d iv dir = Ok (r, src) ->
  d_stages r = d_stages d /\ d_mst r = d_mst d /\ d_header_stage r = d_header_stage d /\
  List.length (d_nodes r) = List.length (d_nodes d) /\ src = r.
Proof. exact to_transposed_shape. Qed.
Print Assumptions C15_shape_kept.

Theorem C15_nodes : forall d iv dir r src, to_transposed d iv dir = Ok (r, src) ->
  exists k dr, interval_by_name iv = Some k /\ parse_direction dir = Some dr /\
  Forall2 (fun a b => n_id b = n_id a /\ n_stage b = n_stage a /\ n_parent b = n_parent a /\ n_header b = n_header a /\
                      n_lastop b = n_lastop a /\ n_sigs b = n_sigs a /\ n_children b = n_children a /\
                      match n_tok a with
                      | Some (TNoteRest n) => exists n', transpose_noterest k dr n = Some n' /\ n_tok b = Some (TNoteRest n')
                      | other => n_tok b = other
                      end) (d_nodes d) (d_nodes r).
Proof. exact to_transposed_nodes. Qed.
Print Assumptions C15_nodes.

Theorem C15_note : forall k dr n n', transpose_noterest k dr n = Some n' ->
  nr_deco n' = nr_deco n /\ List.length (nr_pd n') = List.length (nr_pd n) /\
  Forall2 (fun a b => match st_cat a with
                      | PITCH => st_cat b = PITCH /\ transpose (st_enc a) k dr = Some (st_enc b)
                      | _ => b = a end) (nr_pd n) (nr_pd n').
Proof. exact transpose_noterest_spec. Qed.
Print Assumptions C15_note.

(* finding K4 (source document modified): refuted on the model with a witness *)
Definition k4_text : string := ("**kern" ++ String (ascii_of_nat 10) ("4c" ++ String (ascii_of_nat 10) ("*-" ++ String (ascii_of_nat 10) "")))%string.
Theorem C15_source_unchanged_refuted :
  match loads [] k4_text with
  | IOk d => match to_transposed d "M2" "up" with
             | Ok (r, src) => dumps src default_opts <> dumps d default_opts
             | Err _ => False end
  | _ => False
  end.
Proof.
  (* evaluated after the availability test is put as a look-up in the interval table: sorting the names is dearer
     than the import, the transposition and the two exports together *)
  unfold to_transposed. rewrite available_intervals_mem. vm_compute. discriminate.
Qed.
Print Assumptions C15_source_unchanged_refuted.

(* obligation regenerated from the source on every run: the code this property runs through keeps exactly the state the
   model knows (no new attribute, class-level table, module-level binding or caching decorator), see proofs/State*Proofs.v *)
From KV Require Import StateGen StateBase StateDocumentProofs StatePitchProofs.
Theorem C15_state_as_modelled : state_document = modelled_state_document /\ state_pitch = modelled_state_pitch.
Proof. exact (conj state_document_as_modelled state_pitch_as_modelled). Qed.
Print Assumptions C15_state_as_modelled.
