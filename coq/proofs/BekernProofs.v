(* C04: the basic encoding is the extended one with the signifiers removed NOTE BY NOTE - no note of a chord is lost.
   First at string level, about BekernTokenizer's reduction of a text of any number of notes; then for tokens, through
   the text that export_noterest prints (export_noterest_text; ChordFixedProofs comes for ekern_note and ekern_chord too). *)
From Coq Require Import List String Ascii Bool.
From KV Require Import Strings CatGen Token Tokenizers StringProofs TokenProofs ExportFixedProofs.
Import ListNotations.
Open Scope list_scope.

Definition space : ascii := " "%char.

(* the text of one exported note, from its duration and pitch part (fst) and its signifier part (snd, "" = none) *)
Definition note_text (pd : string * string) : string :=
  if String.eqb (snd pd) "" then fst pd else (fst pd ++ decoration_separator ++ snd pd)%string.

Definition note_clean (pd : string * string) : Prop :=
  avoids mid0 (fst pd) = true /\ avoids space (fst pd) = true /\ avoids space (snd pd) = true /\
  endswith token_separator (fst pd) = false.

Lemma note_text_no_space pd : note_clean pd -> avoids space (note_text pd) = true.
Proof.
  intros [_ [H1 [H2 _]]]. unfold note_text. destruct (String.eqb (snd pd) ""); [exact H1|].
  now rewrite !avoids_app, H1, H2.
Qed.

Lemma reduce_note_text pd : note_clean pd -> reduce_note (note_text pd) = fst pd.
Proof.
  intros [Hm [_ [_ He]]]. unfold reduce_note, note_text. destruct decoration_separator_val as [p ->].
  destruct (String.eqb (snd pd) "").
  - now rewrite (split_str_none mid0 p _ Hm), He.
  - rewrite (split_str_occ mid0 p _ (snd pd) Hm). now rewrite He.
Qed.

Lemma all_clean_no_space f notes : (forall pd, note_clean pd -> avoids space (f pd) = true) -> Forall note_clean notes ->
  forallb (avoids space) (map f notes) = true.
Proof. intros Hf Hc. apply forallb_forall. intros x Hx. apply in_map_iff in Hx as [pd [<- Hin]]. rewrite Forall_forall in Hc. auto. Qed.

Theorem bekern_note_by_note notes : Forall note_clean notes ->
  bekern_of_ekern (join " " (map note_text notes)) = join " " (map fst notes).
Proof.
  intros Hc. unfold bekern_of_ekern. destruct (contains_str _ _) eqn:E; cbn [negb]; f_equal.
  - rewrite (split_join_char " "), map_map;
      [| destruct notes; [discriminate E | discriminate] | exact (all_clean_no_space _ _ note_text_no_space Hc)].
    apply map_ext_in. intros pd Hin. apply reduce_note_text. rewrite Forall_forall in Hc. auto.
  (* a text without decoration separator is returned as it is: then no note has signifiers *)
  - apply map_ext_in. intros pd Hin. unfold note_text. destruct (String.eqb (snd pd) "") eqn:Ed; [reflexivity|]. exfalso.
    destruct (join_in " " _ _ (in_map note_text _ _ Hin)) as [a [b Ej]]. unfold note_text in Ej at 2. rewrite Ed in Ej.
    destruct decoration_separator_val as [p Ep]. rewrite Ej, Ep, !append_assoc, <- (append_assoc a), contains_str_occ in E. discriminate.
Qed.

Corollary bekern_keeps_every_note notes : Forall note_clean notes -> notes <> [] ->
  List.length (split_char space (bekern_of_ekern (join " " (map note_text notes)))) = List.length notes.
Proof.
  intros Hc Hne. rewrite (bekern_note_by_note notes Hc), (split_join_char space), map_length;
    [reflexivity | destruct notes; [contradiction | discriminate] |].
  apply all_clean_no_space; [|exact Hc]. now intros pd [_ [H _]].
Qed.

Example bekern_example :
  bekern_of_ekern ("4@c@#" ++ decoration_separator ++ "L 4@e 4@g" ++ decoration_separator ++ "J")%string = "4@c@# 4@e 4@g"%string.
Proof. vm_compute. reflexivity. Qed.

Section TokenLevel.
  Variable keep : cat -> bool.

  Definition kept_pd (n : noterest) := stable_sort sub_cat_leb (filter (fun s => keep (st_cat s)) (nr_pd n)).
  Definition kept_deco (n : noterest) := stable_sort sub_full_leb (filter (fun s => keep (st_cat s)) (nr_deco n)).
  Definition pd_text (n : noterest) : string := join token_separator (map st_enc (kept_pd n)).
  Definition deco_text (n : noterest) : string := join decoration_separator (map st_enc (kept_deco n)).
  (* what one note exports: (duration and pitch part, signifier part), or the placeholder when nothing is kept *)
  Definition note_pair (n : noterest) : string * string :=
    if String.eqb (pd_text n) "" && String.eqb (deco_text n) "" then (empty_token, ""%string) else (pd_text n, deco_text n).

  Lemma export_noterest_text n : export_noterest keep None n = Ok (note_text (note_pair n)).
  Proof.
    unfold export_noterest, note_pair, note_text. fold (kept_pd n) (kept_deco n). fold (pd_text n) (deco_text n). cbv zeta.
    destruct (String.eqb (deco_text n) "") eqn:Ed.
    - rewrite andb_true_r. destruct (String.eqb (pd_text n) "") eqn:Ep; cbn [fst snd]; [reflexivity|]. now rewrite Ed.
    - rewrite andb_false_r. cbn [fst snd]. rewrite Ed. destruct decoration_separator_val as [p ->]. now destruct (pd_text n).
  Qed.
End TokenLevel.

(* [note_subs_ok n]: what is asked of the sub-token texts of n for [note_pair keep n] to be clean, whatever keep *)
Definition pd_sub_ok (s : subtoken) : bool :=
  avoids mid0 (st_enc s) && avoids space (st_enc s) && avoids amp (st_enc s) && negb (String.eqb (st_enc s) "").
Definition note_subs_ok (n : noterest) : bool :=
  forallb pd_sub_ok (nr_pd n) && forallb (fun s => avoids space (st_enc s)) (nr_deco n).

Lemma pd_sub_ok_inv s : pd_sub_ok s = true ->
  avoids mid0 (st_enc s) = true /\ avoids space (st_enc s) = true /\ avoids amp (st_enc s) = true /\ st_enc s <> ""%string.
Proof.
  unfold pd_sub_ok. intros H. apply andb_true_iff in H as [H H4]. apply andb_true_iff in H as [H H3]. apply andb_true_iff in H as [H1 H2].
  repeat split; try assumption. intros E. rewrite E in H4. discriminate.
Qed.

Lemma kept_text {leb q l x} : In x (map st_enc (stable_sort leb (filter q l))) -> exists s, In s l /\ st_enc s = x.
Proof.
  intros Hx. apply in_map_iff in Hx as [s [<- Hs]]. exists s. split; [|reflexivity].
  apply (Permutation.Permutation_in _ (stable_sort_perm _ _)), filter_In in Hs. apply Hs.
Qed.

Lemma avoids_kept c sep leb q l : avoids c sep = true -> (forall s, In s l -> avoids c (st_enc s) = true) ->
  avoids c (join sep (map st_enc (stable_sort leb (filter q l)))) = true.
Proof.
  intros Hsep H. apply (avoids_join _ _ _ Hsep), forallb_forall. intros x Hx. destruct (kept_text Hx) as [s [Hs <-]]. exact (H s Hs).
Qed.

Theorem note_pair_clean keep n : note_subs_ok n = true -> note_clean (note_pair keep n).
Proof.
  unfold note_subs_ok, note_pair. intros H. apply andb_true_iff in H as [Hpd Hde]. rewrite forallb_forall in Hpd, Hde.
  destruct (_ && _); [repeat split; reflexivity|]. unfold note_clean. cbn [fst snd]. split; [|split; [|split]].
  1-2: apply avoids_kept; [reflexivity|]; intros s Hs; apply (pd_sub_ok_inv s (Hpd s Hs)).
  - apply avoids_kept; [reflexivity | exact Hde].
  - (* the last kept text is not empty and holds no '@' *)
    unfold pd_text, kept_pd. destruct (map st_enc _) as [|e es] eqn:E; [reflexivity|].
    destruct (join_ends_with_part token_separator (e :: es) ltac:(discriminate)) as [a [x [-> Hin]]]. rewrite <- E in Hin.
    destruct (kept_text Hin) as [s [Hs <-]]. destruct (pd_sub_ok_inv s (Hpd s Hs)) as [_ [_ [Hamp Hne]]].
    rewrite token_separator_val, endswith_app; [now apply endswith_avoids|]. destruct (st_enc s); [contradiction | cbn; apply le_n_S, le_0_n].
Qed.

Lemma ekern_note cats n : ekern_tokenize cats (TNoteRest n) = Ok (note_text (note_pair (keep_of cats) n)).
Proof. apply export_noterest_text. Qed.

Lemma ekern_chord cats enc notes :
  ekern_tokenize cats (TChord enc notes) = Ok (join " " (map (fun n => note_text (note_pair (keep_of cats) n)) notes)).
Proof. apply export_chord_notes_join. intros. apply export_noterest_text. Qed.

Theorem chord_bekern_note_by_note cats enc notes : notes <> [] -> forallb note_subs_ok notes = true ->
  ekern_tokenize cats (TChord enc notes) = Ok (join " " (map (fun n => note_text (note_pair (keep_of cats) n)) notes)) /\
  bekern_tokenize cats (TChord enc notes) = Ok (join " " (map (fun n => fst (note_pair (keep_of cats) n)) notes)).
Proof.
  intros _ Hok. split; [apply ekern_chord|]. unfold bekern_tokenize. rewrite ekern_chord. cbn [map_res]. f_equal.
  rewrite <- (map_map (note_pair (keep_of cats)) note_text), <- (map_map (note_pair (keep_of cats)) fst).
  apply bekern_note_by_note, Forall_forall. intros pd Hin. apply in_map_iff in Hin as [n [<- Hn]].
  rewrite forallb_forall in Hok. apply note_pair_clean, Hok, Hn.
Qed.

Theorem note_bekern cats n : note_subs_ok n = true ->
  ekern_tokenize cats (TNoteRest n) = Ok (note_text (note_pair (keep_of cats) n)) /\
  bekern_tokenize cats (TNoteRest n) = Ok (fst (note_pair (keep_of cats) n)).
Proof.
  intros Hok. unfold bekern_tokenize. rewrite ekern_note. split; [reflexivity|]. cbn [map_res]. f_equal.
  apply (bekern_note_by_note [note_pair (keep_of cats) n]). constructor; [apply note_pair_clean, Hok | constructor].
Qed.

(* non-vacuity: a three-note chord whose middle note has no signifier, exported with every category *)
Example chord_example :
  let mk e c := {| st_enc := e; st_cat := c |} in
  let n1 := {| nr_enc := "4c#L"; nr_pd := [mk "4" DURATION; mk "c" PITCH; mk "#" ALTERATION]; nr_deco := [mk "L" DECORATION] |} in
  let n2 := {| nr_enc := "4e"; nr_pd := [mk "4" DURATION; mk "e" PITCH]; nr_deco := [] |} in
  let n3 := {| nr_enc := "4gJ;"; nr_pd := [mk "4" DURATION; mk "g" PITCH]; nr_deco := [mk "J" DECORATION; mk ";" DECORATION] |} in
  forallb note_subs_ok [n1; n2; n3] = true /\
  bekern_tokenize all_cats (TChord "4c#L 4e 4gJ;" [n1; n2; n3]) = Ok "4@c@# 4@e 4@g"%string.
Proof. vm_compute. split; reflexivity. Qed.
