(* The state inventory of the pitch code (pitch_models, transposer, gkern) is the one the model knows; see DESIGN.md. *)
From KV Require Import StateGen StateBase.
Lemma state_pitch_as_modelled : state_pitch = modelled_state_pitch.
Proof. reflexivity. Qed.
