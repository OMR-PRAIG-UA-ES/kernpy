(* The state inventory of the document code (document.py) is the one the model knows; see DESIGN.md. *)
From KV Require Import StateGen StateBase.
Lemma state_document_as_modelled : state_document = modelled_state_document.
Proof. reflexivity. Qed.
