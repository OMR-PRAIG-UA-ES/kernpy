(* Proofs about token export (model/Token.v) and the tokenizers (model/Tokenizers.v): the facts C01 / C03 / C04 / C05 rest on,
   for every token, every category selection and every list of sub-tokens.  First the two things export is made of:
   the byte-wise string order and the stable insertion sort of model/Strings.v, the sort for any order given as a section variable. *)
From Coq Require Import List String Ascii Bool ZArith Lia Permutation Sorted.
From KV Require Import Strings StringProofs CatGen Cat CatProofs EncGen Token Tokenizers.
Import ListNotations.
Open Scope list_scope.

Lemma ascii_nat_inj a b : ascii_nat a = ascii_nat b -> a = b.
Proof. unfold ascii_nat. intros H. rewrite <- (ascii_nat_embedding a), <- (ascii_nat_embedding b). now rewrite H. Qed.

Lemma string_ltb_cons x a y b : string_ltb (String x a) (String y b) =
  match Nat.compare (ascii_nat x) (ascii_nat y) with Lt => true | Eq => string_ltb a b | Gt => false end.
Proof.
  cbn [string_ltb]. destruct (Nat.compare_spec (ascii_nat x) (ascii_nat y)) as [E|L|G].
  - now rewrite E, Nat.ltb_irrefl.
  - now rewrite (proj2 (Nat.ltb_lt _ _) L).
  - now rewrite (proj2 (Nat.ltb_ge _ _) (Nat.lt_le_incl _ _ G)), (proj2 (Nat.ltb_lt _ _) G).
Qed.

Lemma string_ltb_trichotomy : forall a b, string_ltb a b = true \/ a = b \/ string_ltb b a = true.
Proof.
  induction a as [|x a IH]; destruct b as [|y b]; try (cbn [string_ltb]; now auto).
  rewrite !string_ltb_cons, (Nat.compare_antisym (ascii_nat x)).
  destruct (Nat.compare_spec (ascii_nat x) (ascii_nat y)) as [E|L|G]; cbn [CompOpp]; auto.
  apply ascii_nat_inj in E. subst y. destruct (IH b) as [H|[->|H]]; auto.
Qed.

Lemma string_ltb_trans : forall a b c, string_ltb a b = true -> string_ltb b c = true -> string_ltb a c = true.
Proof.
  induction a as [|x a IH]; destruct b as [|y b]; destruct c as [|z c]; try discriminate; auto. rewrite !string_ltb_cons.
  destruct (Nat.compare_spec (ascii_nat x) (ascii_nat y)) as [E1|L1|G1]; try discriminate;
    destruct (Nat.compare_spec (ascii_nat y) (ascii_nat z)) as [E2|L2|G2]; try discriminate; intros H1 H2.
  - rewrite E1, E2, Nat.compare_refl. eauto.
  - now rewrite E1, (proj2 (Nat.compare_lt_iff _ _) L2).
  - now rewrite <- E2, (proj2 (Nat.compare_lt_iff _ _) L1).
  - now rewrite (proj2 (Nat.compare_lt_iff _ _) (Nat.lt_trans _ _ _ L1 L2)).
Qed.

Lemma string_ltb_irrefl : forall a, string_ltb a a = false.
Proof. induction a as [|x a IH]; [reflexivity|]. now rewrite string_ltb_cons, Nat.compare_refl. Qed.

Lemma string_leb_total a b : string_leb a b = true \/ string_leb b a = true.
Proof.
  unfold string_leb. destruct (string_ltb b a) eqn:E1; [|now left]. right.
  destruct (string_ltb a b) eqn:E2; [|reflexivity].
  pose proof (string_ltb_trans _ _ _ E1 E2) as H. now rewrite string_ltb_irrefl in H.
Qed.

Lemma string_leb_trans a b c : string_leb a b = true -> string_leb b c = true -> string_leb a c = true.
Proof.
  unfold string_leb. intros H1 H2. apply negb_true_iff in H1, H2. apply negb_true_iff. destruct (string_ltb c a) eqn:E; [|reflexivity].
  destruct (string_ltb_trichotomy b c) as [H|[H|H]].
  - pose proof (string_ltb_trans _ _ _ H E). congruence.
  - subst. congruence.
  - congruence.
Qed.

Lemma string_leb_antisym a b : string_leb a b = true -> string_leb b a = true -> a = b.
Proof.
  unfold string_leb. intros H1 H2. apply negb_true_iff in H1, H2.
  destruct (string_ltb_trichotomy a b) as [H|[H|H]]; congruence.
Qed.

Section SortFacts.
  Context {A : Type} (leb : A -> A -> bool).
  Hypothesis leb_total : forall a b, leb a b = true \/ leb b a = true.
  Hypothesis leb_trans : forall a b c, leb a b = true -> leb b c = true -> leb a c = true.

  Lemma insert_perm x l : Permutation (insert_sorted leb x l) (x :: l).
  Proof.
    induction l as [|y l IH]; simpl; [reflexivity|].
    destruct (leb y x); [|reflexivity]. exact (perm_trans (perm_skip y IH) (perm_swap x y l)).
  Qed.

  Lemma sort_acc_perm : forall l acc, Permutation (insertion_sort_acc leb acc l) (acc ++ l).
  Proof.
    induction l as [|x l IH]; intros acc; simpl; [now rewrite app_nil_r|].
    apply (perm_trans (IH _)), (perm_trans (Permutation_app_tail l (insert_perm x acc))), Permutation_middle.
  Qed.

  Lemma stable_sort_perm l : Permutation (stable_sort leb l) l.
  Proof. apply (sort_acc_perm l []). Qed.

  Definition sorted (l : list A) : Prop := StronglySorted (fun a b => leb a b = true) l.

  Lemma insert_sorted_sorted x l : sorted l -> sorted (insert_sorted leb x l).
  Proof.
    induction l as [|y l IH]; intros Hs; cbn [insert_sorted]; [repeat constructor|].
    apply StronglySorted_inv in Hs as [Hs Hall]. destruct (leb y x) eqn:E.
    - constructor; [exact (IH Hs)|]. apply (Permutation_Forall (Permutation_sym (insert_perm x l))). now constructor.
    - assert (Hxy : leb x y = true) by (destruct (leb_total x y) as [H|H]; [exact H | congruence]).
      repeat constructor; try assumption. apply (Forall_impl _ (fun z Hz => leb_trans _ _ _ Hxy Hz) Hall).
  Qed.

  Lemma sort_acc_sorted : forall l acc, sorted acc -> sorted (insertion_sort_acc leb acc l).
  Proof. induction l as [|x l IH]; intros acc H; simpl; [exact H | apply IH, insert_sorted_sorted, H]. Qed.

  Lemma filter_sorted p l : sorted l -> sorted (filter p l).
  Proof.
    induction l as [|y l IH]; intros Hs; cbn [filter]; [constructor|]. apply StronglySorted_inv in Hs as [Hs Hall].
    destruct (p y); [|exact (IH Hs)]. constructor; [exact (IH Hs)|]. apply incl_Forall with (2 := Hall), incl_filter.
  Qed.

  Lemma insert_first x y l : sorted (y :: l) -> leb y x = false ->
    forall p, insert_sorted leb x (filter p (y :: l)) = x :: filter p (y :: l).
  Proof.
    intros Hs Hx p. destruct (filter p (y :: l)) as [|z m] eqn:F; [reflexivity|]. cbn [insert_sorted].
    assert (Hz : In z (y :: l)) by (apply (filter_In p); rewrite F; now left).
    apply StronglySorted_inv in Hs as [_ Hall]. destruct (leb z x) eqn:Ez; [|reflexivity].
    destruct Hz as [->|Hz]; [congruence|]. rewrite Forall_forall in Hall. rewrite (leb_trans _ _ _ (Hall z Hz) Ez) in Hx. discriminate.
  Qed.

  Lemma insert_filter p x l : sorted l ->
    filter p (insert_sorted leb x l) = if p x then insert_sorted leb x (filter p l) else filter p l.
  Proof.
    induction l as [|y l IH]; intros Hs; cbn [insert_sorted]; [cbn; now destruct (p x)|]. destruct (leb y x) eqn:E.
    - pose proof Hs as Hs'. apply StronglySorted_inv in Hs' as [Hs' _]. cbn [filter]. rewrite (IH Hs').
      destruct (p y), (p x); cbn [insert_sorted]; now rewrite ?E.
    - cbn [filter]. destruct (p x) eqn:Px; [|reflexivity]. symmetry. exact (insert_first x y l Hs E p).
  Qed.

  Lemma sort_acc_filter p : forall l acc, sorted acc ->
    filter p (insertion_sort_acc leb acc l) = insertion_sort_acc leb (filter p acc) (filter p l).
  Proof.
    induction l as [|x l IH]; intros acc Hs; simpl; [reflexivity|].
    rewrite (IH _ (insert_sorted_sorted x acc Hs)), (insert_filter p x acc Hs). destruct (p x); reflexivity.
  Qed.

  Theorem filter_stable_sort p l : filter p (stable_sort leb l) = stable_sort leb (filter p l).
  Proof. unfold stable_sort. rewrite sort_acc_filter; [reflexivity | constructor]. Qed.

  Theorem stable_sort_sorted l : sorted (stable_sort leb l).
  Proof. apply sort_acc_sorted. constructor. Qed.

  Lemma insert_last x l : forall acc, sorted (acc ++ x :: l) -> insert_sorted leb x acc = acc ++ [x].
  Proof.
    induction acc as [|y acc IH]; cbn [app insert_sorted]; intros H; [reflexivity|].
    apply StronglySorted_inv in H as [H Hy]. apply Forall_app in Hy as [_ Hy]. apply Forall_inv in Hy. now rewrite Hy, IH.
  Qed.

  Lemma sort_acc_id : forall l acc, sorted (acc ++ l) -> insertion_sort_acc leb acc l = acc ++ l.
  Proof.
    induction l as [|x l IH]; intros acc H; cbn [insertion_sort_acc]; [now rewrite app_nil_r|].
    rewrite (insert_last x l acc H), IH; rewrite <- app_assoc; [reflexivity | exact H].
  Qed.

  Theorem stable_sort_id l : sorted l -> stable_sort leb l = l.
  Proof. apply (sort_acc_id l []). Qed.

  Theorem sorted_perm_eq : forall l1 l2, sorted l1 -> sorted l2 -> Permutation l1 l2 ->
    (forall a b, In a l1 -> In b l1 -> leb a b = true -> leb b a = true -> a = b) -> l1 = l2.
  Proof.
    induction l1 as [|x l1 IH]; intros l2 S1 S2 P Hanti; [now apply Permutation_nil in P|].
    destruct l2 as [|y l2]; [apply Permutation_sym, Permutation_nil in P; discriminate|].
    apply StronglySorted_inv in S1 as [S1 A1]. apply StronglySorted_inv in S2 as [S2 A2]. rewrite Forall_forall in A1, A2.
    assert (x = y) as <-.
    { assert (Hx : In x (y :: l2)) by (apply (Permutation_in _ P); now left).
      assert (Hy : In y (x :: l1)) by (apply (Permutation_in _ (Permutation_sym P)); now left).
      destruct Hx as [->|Hx]; [reflexivity|]. destruct Hy as [<-|Hy]; [reflexivity|].
      apply Hanti; [now left | now right | apply A1, Hy | apply A2, Hx]. }
    f_equal. apply IH; [exact S1 | exact S2 | exact (Permutation_cons_inv P) | intros a b Ha Hb; apply Hanti; now right].
  Qed.
End SortFacts.

Lemma sub_cat_leb_total a b : sub_cat_leb a b = true \/ sub_cat_leb b a = true.
Proof.
  unfold sub_cat_leb. destruct (Z.leb_spec (cat_value (st_cat a)) (cat_value (st_cat b))) as [H|H]; [now left | right].
  apply Z.leb_le, Z.lt_le_incl, H.
Qed.
Lemma sub_cat_leb_trans a b c : sub_cat_leb a b = true -> sub_cat_leb b c = true -> sub_cat_leb a c = true.
Proof. unfold sub_cat_leb. intros H1 H2. apply Z.leb_le in H1, H2. apply Z.leb_le. exact (Z.le_trans _ _ _ H1 H2). Qed.

Lemma sub_full_leb_iff a b : sub_full_leb a b = true <->
  (cat_value (st_cat a) < cat_value (st_cat b))%Z \/
  (cat_value (st_cat a) = cat_value (st_cat b) /\ string_leb (st_enc a) (st_enc b) = true).
Proof.
  unfold sub_full_leb. destruct (Z.ltb_spec (cat_value (st_cat a)) (cat_value (st_cat b))) as [H|H]; [split; auto|].
  destruct (Z.ltb_spec (cat_value (st_cat b)) (cat_value (st_cat a))) as [H'|H'].
  - split; [discriminate | intros [L|[E _]]; lia].
  - split; [intros L; right; split; [lia | exact L] | intros [L|[_ L]]; [lia | exact L]].
Qed.

Lemma sub_full_leb_total a b : sub_full_leb a b = true \/ sub_full_leb b a = true.
Proof.
  destruct (Z.lt_total (cat_value (st_cat a)) (cat_value (st_cat b))) as [H|[H|H]].
  - left. apply sub_full_leb_iff. now left.
  - destruct (string_leb_total (st_enc a) (st_enc b)); [left | right]; apply sub_full_leb_iff; right; split; congruence.
  - right. apply sub_full_leb_iff. now left.
Qed.
Lemma sub_full_leb_trans a b c : sub_full_leb a b = true -> sub_full_leb b c = true -> sub_full_leb a c = true.
Proof.
  intros H1 H2. apply sub_full_leb_iff in H1, H2. apply sub_full_leb_iff. destruct H1 as [H1|[H1 L1]], H2 as [H2|[H2 L2]];
    [left; exact (Z.lt_trans _ _ _ H1 H2) | left; now rewrite <- H2 | left; now rewrite H1 | right].
  split; [now rewrite H1 | exact (string_leb_trans _ _ _ L1 L2)].
Qed.

(* C05: the category filter of export acts on the sub-tokens of a note; [filter_note keep n] is n without those of the
   categories that are not kept *)
Definition filter_note (keep : cat -> bool) (n : noterest) : noterest :=
  {| nr_enc := nr_enc n; nr_pd := filter (fun s => keep (st_cat s)) (nr_pd n);
     nr_deco := filter (fun s => keep (st_cat s)) (nr_deco n) |}.

Lemma filter_filter {A} (p : A -> bool) (l : list A) : filter p (filter p l) = filter p l.
Proof. induction l as [|x l IH]; simpl; [reflexivity|]. destruct (p x) eqn:E; simpl; [rewrite E|]; congruence. Qed.

Theorem export_filter_is_deletion keep n :
  export_noterest keep None n = export_noterest (fun _ => true) None (filter_note keep n).
Proof. unfold export_noterest, filter_note. cbn [nr_pd nr_deco]. now rewrite !(filter_all (fun _ => true)) by reflexivity. Qed.

Theorem filtered_parts_are_subsequence keep n :
  stable_sort sub_cat_leb (filter (fun s => keep (st_cat s)) (nr_pd n))
  = filter (fun s => keep (st_cat s)) (stable_sort sub_cat_leb (nr_pd n)) /\
  stable_sort sub_full_leb (filter (fun s => keep (st_cat s)) (nr_deco n))
  = filter (fun s => keep (st_cat s)) (stable_sort sub_full_leb (nr_deco n)).
Proof.
  split; symmetry.
  - apply filter_stable_sort; [apply sub_cat_leb_total | apply sub_cat_leb_trans].
  - apply filter_stable_sort; [apply sub_full_leb_total | apply sub_full_leb_trans].
Qed.

Lemma keep_all c : keep_of (valid None None) c = true.
Proof. unfold keep_of. apply mem_In, valid_none_none. Qed.

Lemma mem_all c : mem c all_cats = true.
Proof. apply mem_In, all_cats_complete. Qed.

Theorem keep_all_is_identity n : filter_note (keep_of (valid None None)) n = n.
Proof. destruct n as [e pd deco]. unfold filter_note. cbn [nr_enc nr_pd nr_deco]. now rewrite !filter_all by (intros; apply keep_all). Qed.

Lemma Ok_inj {A} (a b : A) : Ok a = Ok b -> a = b.
Proof. now intros [=]. Qed.

Lemma export_noterest_nonempty keep conv n s : export_noterest keep conv n = Ok s -> s <> ""%string.
Proof.
  assert (G : forall c, (if String.eqb c "" then empty_token else c) <> ""%string).
  { intros c. destruct (String.eqb_spec c ""); [discriminate | assumption]. }
  unfold export_noterest. cbv zeta. destruct (match conv with None => _ | Some _ => _ end); [|discriminate].
  intros H. apply Ok_inj in H. rewrite <- H. apply G.
Qed.

(* ChordToken.export puts the blank when the text so far is not empty; the export of a note never is *)
Lemma export_chord_notes_acc keep conv f : forall notes acc, acc <> ""%string ->
  (forall n, In n notes -> export_noterest keep conv n = Ok (f n)) ->
  export_chord_notes keep conv acc notes = Ok (join " " (acc :: map f notes)).
Proof.
  induction notes as [|n notes IH]; intros acc Hacc H; [reflexivity|]. cbn [export_chord_notes map].
  rewrite (H n (or_introl eq_refl)). destruct (String.eqb_spec acc ""); [contradiction|].
  rewrite IH; [now rewrite append_assoc, !join_app_head | destruct acc; [contradiction | discriminate] | intros; apply H; now right].
Qed.

Theorem export_chord_notes_join keep conv f notes : (forall n, In n notes -> export_noterest keep conv n = Ok (f n)) ->
  export_chord_notes keep conv "" notes = Ok (join " " (map f notes)).
Proof.
  destruct notes as [|n notes]; intros H; [reflexivity|]. cbn [export_chord_notes map]. rewrite (H n (or_introl eq_refl)).
  apply export_chord_notes_acc; [exact (export_noterest_nonempty _ _ _ _ (H n (or_introl eq_refl))) | intros; apply H; now right].
Qed.

Theorem simple_export_verbatim keep conv t :
  match t with TNoteRest _ | TChord _ _ => True | _ => export_token keep conv t = Ok (tok_enc t) end.
Proof. destruct t; simpl; auto. Qed.

(* C04: the plain encodings are the extended ones with the separators stripped *)
Theorem kern_is_stripped_ekern cats t : kern_tokenize cats t = map_res strip_separators (ekern_tokenize cats t).
Proof. reflexivity. Qed.
Theorem bkern_is_stripped_bekern cats t : bkern_tokenize cats t = map_res strip_token_separator (bekern_tokenize cats t).
Proof. reflexivity. Qed.
Theorem akern_is_stripped_aekern cats clef t : akern_tokenize cats clef t = map_res strip_separators (aekern_tokenize cats clef t).
Proof. reflexivity. Qed.
Theorem bekern_is_reduced_ekern cats t : bekern_tokenize cats t = map_res bekern_of_ekern (ekern_tokenize cats t).
Proof. reflexivity. Qed.

(* [factory_table], regenerated from tokenizers.py, has an entry for every encoding, and it is the encoding's own tokenizer *)
Lemma factory_complete : forallb (fun e => match assoc_enc e factory_table with Some _ => true | None => false end) all_encodings = true.
Proof. vm_compute. reflexivity. Qed.

Definition expected_tokenizer (e : encoding) : string :=
  match e with
  | E_eKern => "EkernTokenizer" | E_normalizedKern => "KernTokenizer" | E_bKern => "BkernTokenizer"
  | E_bEkern => "BekernTokenizer" | E_agnosticExtendedKern => "AEKernTokenizer" | E_agnosticKern => "AKernTokenizer"
  end.
Lemma factory_right : forallb (fun e => match assoc_enc e factory_table with
                                        | Some c => String.eqb c (expected_tokenizer e) | None => false end) all_encodings = true.
Proof. vm_compute. reflexivity. Qed.

Theorem tokenize_dispatch e cats clef t :
  tokenize e cats clef t =
  match e with
  | E_eKern => ekern_tokenize cats t | E_normalizedKern => kern_tokenize cats t
  | E_bKern => bkern_tokenize cats t | E_bEkern => bekern_tokenize cats t
  | E_agnosticExtendedKern => aekern_tokenize cats clef t | E_agnosticKern => akern_tokenize cats clef t
  end.
Proof. destruct e; reflexivity. Qed.

(* what Encoding.prefix is expected to give; [header_for] reads the regenerated [prefix_table] *)
Definition expected_prefix (e : encoding) : string :=
  match e with
  | E_eKern => "e" | E_normalizedKern => "" | E_bKern => "b" | E_bEkern => "be"
  | E_agnosticExtendedKern => "ae" | E_agnosticKern => "a"
  end%string.
Theorem header_prefix e enc sp :
  header_for e (THeader enc sp) = Ok (THeader ("**" ++ expected_prefix e ++ drop 2 enc)%string sp).
Proof. destruct e; reflexivity. Qed.

Lemma verbatim_same_in_all_encodings e cats clef t : (forall keep conv, export_token keep conv t = Ok (tok_enc t)) ->
  strip_separators (tok_enc t) = tok_enc t -> bekern_of_ekern (tok_enc t) = tok_enc t ->
  strip_token_separator (tok_enc t) = tok_enc t ->
  (e = E_agnosticKern \/ e = E_agnosticExtendedKern -> match clef with Some ce => Gkern.create_clef ce <> None | None => True end) ->
  tokenize e cats clef t = Ok (tok_enc t).
Proof.
  intros Hx H1 H2 H3 H4.
  assert (Ha : match clef with Some ce => Gkern.create_clef ce <> None | None => True end -> aekern_tokenize cats clef t = Ok (tok_enc t)).
  { unfold aekern_tokenize. destruct clef as [ce|]; [|intros _; apply Hx]. destruct (Gkern.create_clef ce); [intros _; apply Hx | now intros []]. }
  rewrite tokenize_dispatch. unfold kern_tokenize, bkern_tokenize, bekern_tokenize, akern_tokenize, ekern_tokenize.
  destruct e; rewrite ?Ha by (apply H4; auto); rewrite ?Hx; cbn [map_res]; now rewrite ?H2, ?H3, ?H1.
Qed.

Theorem non_note_same_in_all_encodings e cats clef t :
  match t with TNoteRest _ | TChord _ _ => True
  | _ => strip_separators (tok_enc t) = tok_enc t -> bekern_of_ekern (tok_enc t) = tok_enc t ->
         strip_token_separator (tok_enc t) = tok_enc t ->
         (e = E_agnosticKern \/ e = E_agnosticExtendedKern -> match clef with Some ce => Gkern.create_clef ce <> None | None => True end) ->
         tokenize e cats clef t = Ok (tok_enc t)
  end.
Proof. destruct t; auto; apply verbatim_same_in_all_encodings; reflexivity. Qed.
