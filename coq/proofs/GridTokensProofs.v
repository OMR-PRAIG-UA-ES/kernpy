(* C02 / C03 for EVERY imported document (any number of spines, splits, joins, comments, malformed cells): the tree holds,
   stage by stage and cell by cell, exactly the token of the source cell under the header of its spine -
   stage k+1 is line k (blank lines skipped), its i-th node is the i-th cell of that line, and the node's token is
     the header token               for a cell starting with **,
     the spine-operator token       for *^ *v *- *+ (and *x, which kernpy lists: no text that holds it imports),
     the field-comment token        for a cell starting with !,
     the token the importer of the node's spine header builds from the cell text (or an ErrorToken carrying the cell text
     and the number of the line, blank lines not counted, when that importer rejects it) otherwise;
   a '!!' line is one node holding its first field (the text up to the first tab), stripped, as a comment token.  Read on
   one cell this is C12: which nodes are ErrorTokens ([error_iff_rejected]). *)
From Coq Require Import List String Arith Lia.
From KV Require Import Strings CatGen Token Importer ImporterProofs TreeProofs.
Import ListNotations.
Open Scope list_scope.

Definition cell_rel (bad : list string) (d : doc) (rowno : nat) (id : nat) (c : string) : Prop :=
  exists t, n_tok (get_node d id) = Some t /\
  if startswith "**" c then (exists col, t = THeader c col) /\ n_header (get_node d id) = Some id
  else if mem_str c spine_operations then t = TSimple c SPINE_OPERATION "SpineOperationToken"
  else if startswith "!" c then t = TSimple c FIELD_COMMENTS "FieldCommentToken"
  else exists hid, n_header (get_node d id) = Some hid /\
       match import_cell bad (header_text d hid) c with
       | RTok t' => t = t' | RFail => t = TError c rowno | ROut => False end.

Lemma header_text_grows d d' h : grows d d' -> h < List.length (d_nodes d) -> header_text d' h = header_text d h.
Proof. intros [_ H] Hh. unfold header_text. destruct (H h Hh) as [-> _]. reflexivity. Qed.

(* the last two cases of [cell_rel] are [cell_token]: it passes from a node [p] to a node [q] of a later document that has
   the header of [p] - to [p] itself, or to the node made under [p] *)
Lemma cell_token_grows {bad d d' r p q c t} : hdr_ok d -> grows d d' -> p < List.length (d_nodes d) ->
  n_header (get_node d' q) = n_header (get_node d p) -> cell_token bad d r p c t -> cell_token bad d' r q c t.
Proof.
  intros Hd G Hp Eh. unfold cell_token. destruct (startswith "!" c); [exact (fun H => H)|]. intros (hid & Hh & R). exists hid. split; [congruence|].
  destruct (Hd p hid Hp Hh) as [Hle _]. now rewrite (header_text_grows d d' hid G) by lia.
Qed.

Lemma cell_rel_grows {bad d d' r} : hdr_ok d -> grows d d' -> forall id c, cell_rel bad d r id c -> cell_rel bad d' r id c.
Proof.
  intros Hd G id c [t [Et R]]. pose proof (tok_in_range Et) as Hid. destruct (proj2 G id Hid) as [A B]. exists t. split; [congruence|].
  destruct (startswith "**" c); [rewrite B; exact R|]. destruct (mem_str c spine_operations); [exact R|].
  exact (cell_token_grows Hd G Hid B R).
Qed.

(* every cell node has a spine header, because the parents handed from line to line always have one *)
Definition hashdr (d : doc) (id : nat) : Prop := n_header (get_node d id) <> None.

Lemma hashdr_in_range {d id} : hashdr d id -> id < List.length (d_nodes d).
Proof. exact (in_range n_header d id eq_refl). Qed.

Lemma hashdr_grows {d d'} : grows d d' -> forall id, hashdr d id -> hashdr d' id.
Proof. intros [_ G] id H. unfold hashdr. now destruct (G id (hashdr_in_range H)) as [_ ->]. Qed.

Record wf (s : istate) : Prop := {
  w_state : state_ok s;
  w_built : built (i_doc s);
  w_next : Forall (hashdr (i_doc s)) (i_next s);
  w_prev : match i_prev s with Some l => Forall (hashdr (i_doc s)) l | None => True end }.

Lemma wf_begin {s} : wf s -> wf (begin_row s).
Proof.
  intros [Hs Hd Hn Hp]. constructor; [exact (state_ok_begin Hs) | exact Hd | constructor|]. cbn [begin_row i_doc i_prev i_next].
  destruct (i_next s); assumption.
Qed.

Lemma wf_cell {bad row s icol col p t k b d'} : wf s -> cell_case bad row s icol col p t k b -> appended (i_doc s) (i_stage s) p t d' ->
  wf (after_cell s d' k) /\ cell_rel bad d' (i_row s) (List.length (d_nodes (i_doc s))) col /\ hashdr d' (List.length (d_nodes (i_doc s))).
Proof.
  intros [Hs Hd Hn Hp] C A. pose proof (cell_case_parent Hs C) as Hpar.
  pose proof (grows_appended A) as G. pose proof (adds_new (ap_adds A)) as New.
  assert (R : cell_rel bad d' (i_row s) (List.length (d_nodes (i_doc s))) col /\ hashdr d' (List.length (d_nodes (i_doc s)))).
  { assert (Hq : forall prev, i_prev s = Some prev -> icol < List.length prev -> hashdr (i_doc s) (nth icol prev 0))
      by (intros prev Ep Hlt; rewrite Ep in Hp; exact (proj1 (Forall_nth _ _) Hp _ 0 Hlt)).
    unfold cell_rel, hashdr.
    destruct C as [E1 | prev E1 E2 Ep Hlt | prev t' E1 E2 Ep Hlt Ct]; rewrite E1; [|rewrite E2 | rewrite E2].
    - rewrite New. split; [|discriminate]. eexists. split; [reflexivity|]. split; [eauto | reflexivity].
    - rewrite New, new_node_header by reflexivity. split; [eexists; split; reflexivity | now apply Hq].
    - assert (Eh : n_header (get_node d' (List.length (d_nodes (i_doc s)))) = n_header (get_node (i_doc s) (nth icol prev 0)))
        by (rewrite New; exact (new_node_header _ _ _ _ (cell_token_fresh Ct))).
      split; [|rewrite Eh; now apply Hq]. exists t'. split; [now rewrite New|]. exact (cell_token_grows (built_hdr_ok _ Hd) G Hpar Eh Ct). }
  split; [|exact R]. destruct R as [_ Hnew].
  constructor; cbn [after_cell i_doc i_next i_prev]; [exact (state_ok_cell Hs C A) | exact (built_appended Hd Hpar A) | |].
  - apply Forall_app. split; [exact (Forall_impl _ (hashdr_grows G) Hn)|]. apply Forall_forall. intros x Hx. apply repeat_spec in Hx. now subst x.
  - destruct (i_prev s); [exact (Forall_impl _ (hashdr_grows G) Hp) | exact I].
Qed.

Lemma wf_end {s} bar : wf s -> wf (end_row s bar).
Proof.
  intros [Hs Hd Hn Hp]. pose proof (grows_nodes _ _ (end_row_nodes s bar)) as G.
  constructor; [exact (state_ok_end bar Hs) | exact (built_nodes _ _ (end_row_nodes s bar) Hd) | exact (Forall_impl _ (hashdr_grows G) Hn)|].
  cbn [end_row i_prev]. destruct (i_next s); [destruct (i_prev s) as [[|x l]|] | destruct (i_prev s)]; try exact I; try constructor;
    exact (Forall_impl _ (hashdr_grows G) Hp).
Qed.

Lemma wf_meta {s first d'} : wf s -> appended (i_doc s) (i_stage s) (i_prehdr s) (meta_tok first) d' -> wf (meta_row s d').
Proof.
  intros [Hs Hd Hn Hp] A. pose proof (grows_appended A) as G.
  constructor; [exact (state_ok_meta Hs A) | exact (built_appended Hd (s_prehdr _ Hs) A) | constructor|].
  cbn [meta_row i_doc i_prev]. destruct (i_prev s); [exact (Forall_impl _ (hashdr_grows G) Hp) | exact I].
Qed.

Lemma step_cells_grid {bad row} : forall {cols s icol bar s' b}, wf s -> step_cells bad row s icol cols bar = IOk (s', b) ->
  wf s' /\
  let ids := seq (List.length (d_nodes (i_doc s))) (List.length cols) in
  Forall2 (cell_rel bad (i_doc s') (i_row s)) ids cols /\ Forall (hashdr (i_doc s')) ids.
Proof.
  induction cols as [|c cols IH]; intros s icol bar s' b Hs; cbn [step_cells List.length seq].
  - intros H. injection H as <- _. split; [exact Hs|]. cbv zeta. repeat constructor.
  - destruct (step_cell bad row s icol c) as [[s1 b1]| |] eqn:Hc; try discriminate.
    destruct (step_cell_spec Hc) as (p & t & k & d' & C & A & ->). destruct (wf_cell Hs C A) as (Hs1 & R1 & H1). intros H.
    destruct (IH _ _ _ _ _ Hs1 H) as (Hs' & F2 & HH2). destruct (step_cells_frame H) as (_ & _ & _ & G2).
    cbn [after_cell i_doc i_row] in *. rewrite (adds_length (ap_adds A)) in *. split; [exact Hs'|]. cbv zeta.
    split; [constructor; [exact (cell_rel_grows (built_hdr_ok _ (w_built _ Hs1)) G2 _ _ R1) | exact F2]|].
    exact (Forall_cons _ (hashdr_grows G2 _ H1) HH2).
Qed.

Definition row_rel (bad : list string) (d : doc) (rowno : nat) (ids : list nat) (row : list string) : Prop :=
  match row with
  | [] => False
  | first :: _ =>
    if startswith "!!" first
    then exists id, ids = [id] /\ n_tok (get_node d id) = Some (TSimple (strip first) LINE_COMMENTS "MetacommentToken") /\
                   n_header (get_node d id) = None
    else Forall2 (cell_rel bad d rowno) ids row /\ Forall (hashdr d) ids
  end.

Lemma row_rel_grows {bad d d' r ids row} : hdr_ok d -> grows d d' -> row_rel bad d r ids row -> row_rel bad d' r ids row.
Proof.
  intros Hd G. unfold row_rel. destruct row as [|first rest]; [auto|]. destruct (startswith "!!" first).
  - intros [id [-> [Et Eh]]]. exists id. split; [reflexivity|]. destruct G as [_ H]. now destruct (H id (tok_in_range Et)) as [-> ->].
  - intros [F H]. split; [exact (Forall2_impl _ _ (cell_rel_grows Hd G) _ _ F) | exact (Forall_impl _ (hashdr_grows G) H)].
Qed.

Lemma step_row_grid {bad s first rest s'} : wf s -> step_row bad s (first :: rest) = IOk s' ->
  wf s' /\ grows (i_doc s) (i_doc s') /\ i_row s' = S (i_row s) /\
  row_rel bad (i_doc s') (i_row s) (seq (List.length (d_nodes (i_doc s))) (cell_count (first :: rest))) (first :: rest).
Proof.
  intros Hs H. apply step_row_spec in H. unfold row_rel. cbn [cell_count].
  destruct (startswith "!!" first).
  - destruct H as (d' & A & ->). cbn [meta_row begin_row i_doc i_row seq] in *.
    split; [exact (wf_meta (wf_begin Hs) A)|]. split; [exact (grows_appended A)|]. split; [reflexivity|].
    eexists. split; [reflexivity|]. now rewrite (adds_new (ap_adds A)).
  - destruct H as (s1 & bar & Hc & ->). destruct (step_cells_grid (wf_begin Hs) Hc) as (Hs1 & F & HH).
    destruct (step_cells_frame Hc) as (_ & Er & _ & G).
    pose proof (grows_nodes _ _ (end_row_nodes s1 bar)) as Ge. cbn [begin_row i_doc i_row] in *.
    split; [now apply wf_end|]. split; [eapply grows_trans; eassumption|]. split; [cbn [end_row i_row]; now rewrite Er|].
    split; [exact (Forall2_impl _ _ (cell_rel_grows (built_hdr_ok _ (w_built _ Hs1)) Ge) _ _ F) | exact (Forall_impl _ (hashdr_grows Ge) HH)].
Qed.

(* [k] is the number of the first of the lines [rows], blank lines not counted, from 1 *)
Fixpoint rows_rel (bad : list string) (d : doc) (k : nat) (sts : list (list nat)) (rows : list (list string)) : Prop :=
  match sts, rows with
  | [], [] => True
  | ids :: sts', row :: rows' => row_rel bad d k ids row /\ rows_rel bad d (S k) sts' rows'
  | _, _ => False
  end.

Definition nonempty_row (row : list string) : bool := match row with [] => false | _ => true end.

(* from any state the importer reaches: the stages that the lines [rows] append hold these lines, numbered from i_row s.  The
   relation of a line is established in the document as it is after that line and carried to the final one, which only grows *)
Theorem run_rows_grid bad : forall rows s s', wf s -> List.length (d_stages (i_doc s)) = S (i_stage s) -> run_rows bad s rows = IOk s' ->
  grows (i_doc s) (i_doc s') /\
  exists sts, d_stages (i_doc s') = d_stages (i_doc s) ++ sts /\ rows_rel bad (i_doc s') (i_row s) sts (filter nonempty_row rows).
Proof.
  induction rows as [|r rows IH]; intros s s' Hs Hlen; cbn [run_rows filter].
  - intros H. injection H as <-. split; [apply grows_refl | exists []; now rewrite app_nil_r].
  - destruct (step_row bad s r) as [s1| |] eqn:Hr; try discriminate.
    destruct r as [|first rest]; cbn [nonempty_row]; [injection Hr as <-; now apply IH|].
    destruct (step_row_stages Hlen Hr) as (St & _). destruct (step_row_grid Hs Hr) as (Hs1 & G1 & Er & RR). intros H.
    destruct (IH s1 s' Hs1 (step_row_sync Hlen Hr) H) as (G & sts & E & R).
    split; [exact (grows_trans _ _ _ G1 G)|]. eexists (_ :: sts). split; [rewrite E, St, <- app_assoc; reflexivity|]. rewrite Er in R.
    exact (conj (row_rel_grows (built_hdr_ok _ (w_built _ Hs1)) G RR) R).
Qed.

Lemma init_state_wf : wf init_state.
Proof. constructor; [apply init_state_ok | apply built_empty | constructor | exact I]. Qed.

Theorem loads_grid bad text d : loads bad text = IOk d ->
  exists sts, d_stages d = [0] :: sts /\ rows_rel bad d 1 sts (filter nonempty_row (rows_of_text text)).
Proof.
  intros H. destruct (loads_run H) as (s & Hr & <-).
  exact (proj2 (run_rows_grid bad _ _ _ init_state_wf eq_refl Hr)).
Qed.

Theorem load_file_grid bad bytes d : load_file bad bytes = IOk d ->
  exists sts, d_stages d = [0] :: sts /\ rows_rel bad d 1 sts (filter nonempty_row (rows_of_file bytes)).
Proof.
  intros H. destruct (load_file_run H) as (s & Hr & <-).
  exact (proj2 (run_rows_grid bad _ _ _ init_state_wf eq_refl Hr)).
Qed.

Example grid_example :
  match loads ["zz"%string] "**kern	**kern
!! a comment
4c	8e
zz	4d
*-	*-
" with
  | IOk d => d_stages d = [[0]; [1; 2]; [3]; [4; 5]; [6; 7]; [8; 9]] /\
             n_tok (get_node d 6) = Some (TError "zz" 4) /\ n_tok (get_node d 3) = Some (TSimple "!! a comment" LINE_COMMENTS "MetacommentToken")
  | _ => False
  end.
Proof. vm_compute. repeat split. Qed.

Theorem error_iff_rejected bad d r id c : cell_rel bad d r id c ->
  forall e l, n_tok (get_node d id) = Some (TError e l) <->
    (e = c /\ l = r /\ startswith "**" c = false /\ mem_str c spine_operations = false /\ startswith "!" c = false /\
     exists hid, n_header (get_node d id) = Some hid /\ import_cell bad (header_text d hid) c = RFail).
Proof.
  intros [t [Et R]] e l. rewrite Et. split.
  - intros H. injection H as ->.
    destruct (startswith "**" c); [destruct R as [[col Hc] _]; discriminate|].
    destruct (mem_str c spine_operations); [discriminate|]. destruct (startswith "!" c); [discriminate|].
    destruct R as [hid [Hh R]]. destruct (import_cell bad (header_text d hid) c) as [t'| |] eqn:Ei; [|injection R as -> ->|contradiction].
    + subst t'. discriminate (import_cell_ok Ei).
    + repeat split; try reflexivity. exists hid. split; assumption.
  - intros [-> [-> [E1 [E2 [E3 [hid [Hh Ei]]]]]]]. rewrite E1, E2, E3 in R. destruct R as [hid' [Hh' R]].
    rewrite Hh in Hh'. injection Hh' as <-. rewrite Ei in R. now rewrite R.
Qed.
