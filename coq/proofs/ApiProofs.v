(* C19 and C15 on the model of Api.v: Generic.concat ([concat_spec], with [consecutive] and [joined] of its statement)
   and Document.to_transposed ([to_transposed_spec]: node by node [node_kept], note by note
   [transpose_noterest_spec]). *)
From Coq Require Import List String Bool BinInt Permutation.
From KV Require Import Strings StringProofs TokenProofs CatGen IntervalGen Pitch Token Importer Api.
Import ListNotations.
Open Scope list_scope.

Fixpoint consecutive (low : nat) (l : list (nat * nat)) : Prop :=
  match l with
  | [] => True
  | (a, b) :: r => a = low /\ consecutive (S b) r
  end.

Lemma consecutive_app low l1 l2 : consecutive low (l1 ++ l2) <->
  consecutive low l1 /\ consecutive (match rev l1 with [] => low | (_, b) :: _ => S b end) l2.
Proof.
  revert low. induction l1 as [|[a b] l1 IH]; intros low; simpl; [tauto|].
  rewrite IH. destruct (rev l1) as [|[a' b'] r']; simpl; tauto.
Qed.

(* the text concat accumulates: raw_kern += separator + content, for each fragment *)
Fixpoint joined (sep : string) (frags : list string) : string :=
  match frags with [] => ""%string | f :: r => (sep ++ f ++ joined sep r)%string end.

Lemma concat_loop_spec bad sep : forall frags raw low last acc d idx,
  concat_loop bad sep raw low frags last acc = IOk (Some d, idx) -> frags <> [] ->
  loads bad (raw ++ joined sep frags) = IOk d /\
  exists new, idx = acc ++ new /\ List.length new = List.length frags /\ consecutive low new /\
              match rev new with (_, b) :: _ => b = List.length (d_mst d) | [] => False end.
Proof.
  induction frags as [|f frags IH]; intros raw low last acc d idx H Hne; [contradiction|].
  simpl in H. destruct (loads bad (raw ++ sep ++ f)) as [d1| |] eqn:Hl; try discriminate.
  destruct frags as [|f2 frags].
  - simpl in H. injection H as <- <-. split; [simpl; rewrite append_nil_r; exact Hl|].
    exists [(low, List.length (d_mst d1))]. simpl. auto.
  - destruct (IH _ _ _ _ _ _ H ltac:(discriminate)) as [Hd [new [-> [Hlen [Hc Hl2]]]]]. split.
    + rewrite <- Hd. cbn [joined]. rewrite !append_assoc. reflexivity.
    + exists ((low, List.length (d_mst d1)) :: new). rewrite <- app_assoc. split; [reflexivity|].
      split; [simpl; rewrite Hlen; reflexivity|]. split; [simpl; auto|].
      simpl. destruct (rev new) as [|[a b] r]; [contradiction | exact Hl2].
Qed.

Theorem concat_spec {bad frags sep d idx} : concat bad frags sep = IOk (d, idx) ->
  loads bad (joined sep frags) = IOk d /\
  consecutive 0 idx /\ List.length idx = List.length frags /\
  match rev idx with (_, b) :: _ => b = List.length (d_mst d) | [] => False end.
Proof.
  unfold concat. destruct frags as [|f frags]; [discriminate|].
  destruct (concat_loop bad sep "" 0 (f :: frags) None []) as [[[d'|] idx']| |] eqn:H; try discriminate.
  intros E. injection E as <- <-.
  destruct (concat_loop_spec _ _ _ _ _ _ _ _ _ H ltac:(discriminate)) as [Hd [new [-> [Hlen [Hc Hl]]]]]. auto.
Qed.

Lemma fold_append {A B C} (step : option C -> A -> option C) (proj : C -> list B) (R : A -> B -> Prop) :
  (forall x, step None x = None) ->
  (forall c x c', step (Some c) x = Some c' -> exists y, proj c' = proj c ++ [y] /\ R x y) ->
  forall xs c c', fold_left step xs (Some c) = Some c' -> exists new, proj c' = proj c ++ new /\ Forall2 R xs new.
Proof.
  intros Hn Hs. induction xs as [|x xs IH]; intros c c'; simpl.
  - intros H. injection H as <-. exists []. rewrite app_nil_r. split; [reflexivity | constructor].
  - destruct (step (Some c) x) as [c1|] eqn:E.
    + intros H. destruct (Hs _ _ _ E) as [y [Hy Hr]]. destruct (IH _ _ H) as [new [Hnew Hf]].
      exists (y :: new). split; [rewrite Hnew, Hy, <- app_assoc; reflexivity | constructor; assumption].
    + now rewrite (fold_left_stuck step None Hn).
Qed.

(* for a split in two on a category, where destructing it makes 37 goals *)
Lemma not_pitch {X} c (a b : X) : c <> PITCH ->
  match c with PITCH => a | _ => b end = b.
Proof. destruct c; congruence. Qed.

Lemma transpose_noterest_spec k dr n n' : transpose_noterest k dr n = Some n' ->
  nr_deco n' = nr_deco n /\ List.length (nr_pd n') = List.length (nr_pd n) /\
  Forall2 (fun a b => match st_cat a with
                      | PITCH => st_cat b = PITCH /\ transpose (st_enc a) k dr = Some (st_enc b)
                      | _ => b = a end) (nr_pd n) (nr_pd n').
Proof.
  unfold transpose_noterest.
  set (step := fun (acc : option (list subtoken * string)) (s : subtoken) => _).
  destruct (fold_left step (nr_pd n) (Some ([], ""%string))) as [[pd enc]|] eqn:E; [|discriminate].
  intros H. injection H as <-. cbn [nr_deco nr_pd]. eapply (fold_append step fst) in E.
  - destruct E as [new [E Hf]]. simpl in E. subst pd. split; [reflexivity|]. split; [symmetry; exact (Forall2_length _ _ _ Hf) | exact Hf].
  - reflexivity.
  - intros [l e] s c'. unfold step. destruct (cat_eq_dec (st_cat s) PITCH) as [Ec|Ec].
    + rewrite Ec. destruct (transpose (st_enc s) k dr) as [tp|]; [|discriminate].
      intros H. injection H as <-. eexists. split; [reflexivity|]. split; reflexivity.
    + rewrite not_pitch by exact Ec. intros H. injection H as <-. exists s. split; [reflexivity|].
      rewrite not_pitch by exact Ec. reflexivity.
Qed.

Lemma dedup_str_In x l : In x (dedup_str l) <-> In x l.
Proof.
  induction l as [|y l IH]; simpl; [reflexivity|]. destruct (mem_str y l) eqn:E; simpl; rewrite IH; [|reflexivity].
  apply mem_str_In in E. split; [auto | intros [<-|H]; assumption].
Qed.

(* the availability test to_transposed starts with, as a look-up in the table: decided without sorting the names *)
Lemma available_intervals_mem iv : mem_str iv available_intervals = mem_str iv (map snd intervals).
Proof.
  apply eq_true_iff_eq. rewrite 2 mem_str_In, <- (dedup_str_In iv (map snd intervals)).
  split; apply Permutation_in; [|symmetry]; apply stable_sort_perm.
Qed.

(* what to_transposed may do to a node: only the token of a single note or rest changes, into its transposition *)
Definition node_kept (k : Z) (dr : direction) (a b : node) : Prop :=
  n_id b = n_id a /\ n_stage b = n_stage a /\ n_parent b = n_parent a /\ n_header b = n_header a /\
  n_lastop b = n_lastop a /\ n_sigs b = n_sigs a /\ n_children b = n_children a /\
  match n_tok a with
  | Some (TNoteRest n) => exists n', transpose_noterest k dr n = Some n' /\ n_tok b = Some (TNoteRest n')
  | other => n_tok b = other
  end.

Lemma node_kept_refl k dr a : match n_tok a with Some (TNoteRest _) => False | _ => True end -> node_kept k dr a a.
Proof. intros H. repeat split. destruct (n_tok a) as [[]|]; (reflexivity || destruct H). Qed.

Theorem to_transposed_spec d iv dir r src : to_transposed d iv dir = Ok (r, src) ->
  src = r /\ exists ns, r = set_nodes d ns /\
  exists k dr, interval_by_name iv = Some k /\ parse_direction dir = Some dr /\ Forall2 (node_kept k dr) (d_nodes d) ns.
Proof.
  unfold to_transposed. destruct (negb (mem_str iv available_intervals)); [discriminate|].
  destruct (parse_direction dir) as [dr|]; [|discriminate]. destruct (interval_by_name iv) as [k|]; [|discriminate].
  set (step := fun (acc : option (list node)) (nd : node) => _).
  destruct (fold_left step (d_nodes d) (Some [])) as [ns|] eqn:E; [|discriminate].
  intros H. injection H as <- <-. split; [reflexivity|]. exists ns. split; [reflexivity|]. exists k, dr.
  split; [reflexivity|]. split; [reflexivity|]. apply (fold_append step (fun l => l) (node_kept k dr)) in E.
  - destruct E as [new [E Hf]]. simpl in E. subst ns. exact Hf.
  - reflexivity.
  - intros l nd l'. unfold step. destruct (n_tok nd) as [[e c cls|e h|e sp|e ln|n|e notes]|] eqn:Et;
      try (intros H; injection H as <-; exists nd; split; [reflexivity | apply node_kept_refl; rewrite Et; exact I]).
    destruct (transpose_noterest k dr n) as [n'|] eqn:En; [|discriminate].
    intros H. injection H as <-. eexists. split; [reflexivity|]. repeat split. rewrite Et. exists n'. auto.
Qed.

Theorem to_transposed_shape d iv dir r src : to_transposed d iv dir = Ok (r, src) ->
  d_stages r = d_stages d /\ d_mst r = d_mst d /\ d_header_stage r = d_header_stage d /\
  List.length (d_nodes r) = List.length (d_nodes d) /\ src = r.
Proof.
  intros H. apply to_transposed_spec in H. destruct H as [-> [ns [-> [k [dr [_ [_ Hf]]]]]]].
  repeat split. symmetry. exact (Forall2_length _ _ _ Hf).
Qed.

Theorem to_transposed_nodes d iv dir r src : to_transposed d iv dir = Ok (r, src) ->
  exists k dr, interval_by_name iv = Some k /\ parse_direction dir = Some dr /\
  Forall2 (node_kept k dr) (d_nodes d) (d_nodes r).
Proof. intros H. apply to_transposed_spec in H. destruct H as [_ [ns [-> H]]]. exact H. Qed.
