(* C07 / C18 / C19: WHICH lines open a measure.  For every text that imports: a (non-comment) line appends its stage to
   the measure index exactly when one of its ordinary cells - no header, no spine operator - holds a token of category
   BARLINES (whatever the type of its spine), or a token under CORE while no measure is open yet; nothing else ever
   changes the measure index.  Hence importing more lines only extends it (C19), and it is strictly increasing and
   addresses existing stages (C07). *)
From Coq Require Import List String Bool Arith Lia Sorted.
From KV Require Import Strings CatGen Cat Token Importer ImporterProofs TreeProofs.
Import ListNotations.
Open Scope list_scope.

Definition opens_tok (none_yet : bool) (t : token) : bool :=
  cat_beq (tok_cat t) BARLINES || (is_child CORE (tok_cat t) && none_yet).

Definition cell_flag (none_yet : bool) (d : doc) (id : nat) (c : string) : bool :=
  if startswith "**" c then false else if mem_str c spine_operations then false
  else match n_tok (get_node d id) with Some t => opens_tok none_yet t | None => false end.

Fixpoint row_flag (none_yet : bool) (d : doc) (ids : list nat) (cols : list string) : bool :=
  match ids, cols with
  | id :: ids', c :: cols' => cell_flag none_yet d id c || row_flag none_yet d ids' cols'
  | _, _ => false
  end.

Lemma row_flag_nodes z d d' : d_nodes d' = d_nodes d -> forall ids cols, row_flag z d' ids cols = row_flag z d ids cols.
Proof.
  intros E. induction ids as [|id ids IH]; intros [|c cols]; cbn [row_flag]; try reflexivity.
  rewrite IH. unfold cell_flag, get_node. now rewrite E.
Qed.

(* the flag a cell returns is the flag of the node it makes; that node keeps its token while the rest of the line is read *)
Lemma step_cells_flag {bad row} : forall {cols s icol bar s' b}, step_cells bad row s icol cols bar = IOk (s', b) ->
  b = bar || row_flag (Nat.eqb (List.length (d_mst (i_doc s))) 0) (i_doc s') (seq (List.length (d_nodes (i_doc s))) (List.length cols)) cols.
Proof.
  induction cols as [|c cols IH]; intros s icol bar s' b; cbn [step_cells List.length seq row_flag].
  - intros H. injection H as _ <-. now rewrite orb_false_r.
  - destruct (step_cell bad row s icol c) as [[s1 b1]| |] eqn:Hc; try discriminate. intros H. rewrite (IH _ _ _ _ _ H).
    (* G, the second half of [grows]: the nodes that were there keep their tokens *)
    destruct (step_cells_frame H) as (_ & _ & _ & [_ G]).
    destruct (step_cell_spec Hc) as (p & t & k & d' & C & A & ->). cbn [after_cell i_doc] in *.
    pose proof (adds_length (ap_adds A)) as L. rewrite (ap_mst A), L, <- orb_assoc. f_equal. f_equal.
    unfold cell_flag. destruct (G (List.length (d_nodes (i_doc s))) ltac:(lia)) as [-> _]. rewrite (adds_new (ap_adds A)).
    destruct C as [E1 | prev E1 E2 _ _ | prev t' E1 E2 _ _ _]; rewrite E1; [|rewrite E2 | rewrite E2]; reflexivity.
Qed.

Definition measure_step_spec (s : istate) (row : list string) (s' : istate) : Prop :=
  d_mst (i_doc s') = d_mst (i_doc s) ++
    (match row with
     | [] => []
     | first :: _ =>
       if startswith "!!" first then []
       else if row_flag (Nat.eqb (List.length (d_mst (i_doc s))) 0) (i_doc s') (seq (List.length (d_nodes (i_doc s))) (List.length row)) row
            then [S (i_stage s)] else []
     end).

Theorem step_row_opens {bad s row s'} : step_row bad s row = IOk s' -> measure_step_spec s row s'.
Proof.
  unfold measure_step_spec. intros H. destruct row as [|first rest]; [injection H as <-; now rewrite app_nil_r|]. apply step_row_spec in H.
  destruct (startswith "!!" first).
  - destruct H as (d' & A & ->). rewrite app_nil_r. exact (ap_mst A).
  - destruct H as (s1 & bar & Hc & ->). pose proof (step_cells_flag Hc) as F. cbn [begin_row i_doc orb] in F.
    destruct (step_cells_frame Hc) as (St & _ & M & _). cbn [begin_row i_doc i_stage] in M, St.
    rewrite (row_flag_nodes _ _ _ (end_row_nodes s1 bar)), <- F. destruct bar; cbn [end_row i_doc push_mst d_mst]; now rewrite M, ?St, ?app_nil_r.
Qed.

Theorem step_row_measure bad s row s' : state_ok s -> hdr_ok (i_doc s) -> step_row bad s row = IOk s' ->
  d_mst (i_doc s') = d_mst (i_doc s) ++
    (match row with
     | [] => []
     | first :: _ =>
       if startswith "!!" first then []
       else if row_flag (Nat.eqb (List.length (d_mst (i_doc s))) 0) (i_doc s') (seq (List.length (d_nodes (i_doc s))) (List.length row)) row
            then [S (i_stage s)] else []
     end).
Proof. intros _ _. exact step_row_opens. Qed.

Lemma step_row_mst {bad s row s'} : step_row bad s row = IOk s' ->
  d_mst (i_doc s') = d_mst (i_doc s) \/ d_mst (i_doc s') = d_mst (i_doc s) ++ [S (i_stage s)].
Proof.
  intros H. rewrite (step_row_opens H). destruct row as [|first rest]; [left; apply app_nil_r|].
  destruct (startswith "!!" first); [left; apply app_nil_r|]. destruct (row_flag _ _ _ _); [now right | left; apply app_nil_r].
Qed.

Theorem run_rows_mst_prefix bad rows s s' : run_rows bad s rows = IOk s' -> exists ext, d_mst (i_doc s') = d_mst (i_doc s) ++ ext.
Proof.
  apply (run_rows_preserves bad (fun s' => exists ext, d_mst (i_doc s') = d_mst (i_doc s) ++ ext)); [|exists []; now rewrite app_nil_r].
  intros s0 row s1 [ext E] H. destruct (step_row_mst H) as [->| ->]; rewrite E; [eauto | rewrite <- app_assoc; eauto].
Qed.

Theorem prefix_measures bad r1 r2 s1 s :
  run_rows bad init_state r1 = IOk s1 -> run_rows bad init_state (r1 ++ r2) = IOk s ->
  exists ext, d_mst (i_doc s) = d_mst (i_doc s1) ++ ext.
Proof. intros H1 H. rewrite run_rows_app, H1 in H. exact (run_rows_mst_prefix _ _ _ _ H). Qed.

(* the entries are bounded by i_stage; the last clause ties i_stage to the number of stages, of which the theorem speaks *)
Definition mst_ok (s : istate) : Prop :=
  StronglySorted lt (d_mst (i_doc s)) /\ Forall (fun m => 1 <= m <= i_stage s) (d_mst (i_doc s)) /\
  List.length (d_stages (i_doc s)) = S (i_stage s).

Lemma sorted_snoc l x : StronglySorted lt l -> Forall (fun m => m < x) l -> StronglySorted lt (l ++ [x]).
Proof.
  induction l as [|y l IH]; intros Hs Hf; simpl; [constructor; constructor|].
  inversion Hs as [|? ? Hs' Hall]; subst. inversion Hf as [|? ? Hy Hf']; subst.
  constructor; [apply IH; assumption|]. apply Forall_app. split; [exact Hall | constructor; [exact Hy | constructor]].
Qed.

Lemma step_row_mst_ok {bad s row s'} : mst_ok s -> step_row bad s row = IOk s' -> mst_ok s'.
Proof.
  intros (Hs & Hb & Hl) H. destruct row as [|first rest]; [injection H as <-; now repeat split|].
  destruct (step_row_stages Hl H) as (_ & Hst). pose proof (step_row_sync Hl H) as Hl'.
  assert (Hw : Forall (fun m => 1 <= m <= i_stage s') (d_mst (i_doc s))) by (eapply Forall_impl; [|exact Hb]; cbv beta; lia).
  destruct (step_row_mst H) as [E'|E']; unfold mst_ok; rewrite E'; [now repeat split|].
  split; [|split; [|exact Hl']].
  - apply sorted_snoc; [exact Hs|]. eapply Forall_impl; [|exact Hb]. cbv beta. lia.
  - apply Forall_app. split; [exact Hw | constructor; [lia | constructor]].
Qed.

Theorem loads_measure_index bad text d : loads bad text = IOk d ->
  StronglySorted lt (d_mst d) /\ Forall (fun m => 1 <= m < List.length (d_stages d)) (d_mst d).
Proof.
  intros HL. destruct (loads_run HL) as (s & H & <-).
  assert (H0 : mst_ok init_state) by (repeat split; constructor).
  destruct (run_rows_preserves bad mst_ok (@step_row_mst_ok bad) _ _ _ H0 H) as (Hs & Hb & Hl).
  split; [exact Hs|]. eapply Forall_impl; [|exact Hb]. cbv beta. lia.
Qed.
