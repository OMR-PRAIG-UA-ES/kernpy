(* Proofs for C01 (canonicity): what the listener collects and what export prints for the signifiers of
   a note depends only on the SET of signifier characters - not on their order, repetition or slot.  The slots are the
   four places of a note where signifiers may stand (d1 .. d4 of scan_note and scan_note_tail: before the duration, before
   the pitch, before and after the accidental); the listener adds what stands in them to one list. *)
From Coq Require Import List String Ascii Bool Permutation.
From KV Require Import Strings CatGen Token KernTok TokenProofs.
Import ListNotations.
Open Scope list_scope.

Definition deco_of (c : ascii) : subtoken := {| st_enc := String c ""; st_cat := DECORATION |}.

Lemma existsb_deco a c : existsb (fun s => String.eqb (st_enc s) (String c "")) (map deco_of a) = true <-> In c a.
Proof.
  rewrite existsb_exists. split.
  - intros [s [Hs He]]. apply in_map_iff in Hs as [x [<- Hx]]. apply String.eqb_eq in He. now injection He as <-.
  - intros H. exists (deco_of c). split; [now apply in_map | apply String.eqb_refl].
Qed.

(* [add_decos] is the listener's _add_decoration loop; what it has collected is always the image [map deco_of b] of a
   list of characters *)
Lemma add_decos_spec : forall l a, NoDup a ->
  exists b, add_decos (map deco_of a) l = map deco_of b /\ NoDup b /\ forall c, In c b <-> In c (a ++ l).
Proof.
  induction l as [|c l IH]; intros a Hn; cbn [add_decos].
  { exists a. rewrite app_nil_r. now split. }
  destruct (existsb _ _) eqn:E.
  - apply existsb_deco in E. destruct (IH a Hn) as [b [Eb [Nb Sb]]]. exists b. split; [exact Eb | split; [exact Nb|]].
    intros x. rewrite Sb, !in_app_iff. cbn [In]. split; [tauto | intros [H|[<-|H]]; auto].
  - specialize (IH (a ++ [c])). rewrite map_app, <- app_assoc in IH. apply IH.
    apply (Permutation_NoDup (Permutation_cons_append _ _)). constructor; [|exact Hn]. rewrite <- existsb_deco. congruence.
Qed.

Lemma add_decos_nodup : forall l a, NoDup (a ++ l) -> add_decos (map deco_of a) l = map deco_of (a ++ l).
Proof.
  induction l as [|c l IH]; intros a Hn; cbn [add_decos]; [now rewrite app_nil_r|].
  rewrite (proj1 (not_true_iff_false _))
    by (rewrite existsb_deco; intros H; exact (NoDup_remove_2 _ _ _ Hn (in_or_app _ _ _ (or_introl H)))).
  specialize (IH (a ++ [c])). rewrite map_app, <- app_assoc in IH. exact (IH Hn).
Qed.

Lemma add_decos_fresh l : NoDup l -> add_decos [] l = map deco_of l.
Proof. exact (add_decos_nodup l []). Qed.

Lemma add_decos_present : forall l a, incl l a -> add_decos (map deco_of a) l = map deco_of a.
Proof.
  induction l as [|c l IH]; intros a H; [reflexivity|]. cbn [add_decos].
  rewrite (proj2 (existsb_deco a c)) by (apply H; now left). apply IH. intros x Hx. apply H. now right.
Qed.

Section Unique.
  Context {A : Type} (leb : A -> A -> bool).
  Hypothesis leb_antisym : forall a b, leb a b = true -> leb b a = true -> a = b.

  Lemma sorted_unique : forall l1 l2, sorted leb l1 -> sorted leb l2 -> NoDup l1 -> NoDup l2 ->
    (forall x, In x l1 <-> In x l2) -> l1 = l2.
  Proof.
    intros l1 l2 S1 S2 N1 N2 Hset. apply (sorted_perm_eq leb l1 l2 S1 S2 (NoDup_Permutation N1 N2 Hset)).
    intros a b _ _. apply leb_antisym.
  Qed.
End Unique.

Lemma deco_leb_antisym c1 c2 : sub_full_leb (deco_of c1) (deco_of c2) = true ->
  sub_full_leb (deco_of c2) (deco_of c1) = true -> deco_of c1 = deco_of c2.
Proof.
  unfold sub_full_leb. simpl. intros H1 H2.
  assert (E : String c1 "" = String c2 "") by (now apply string_leb_antisym). injection E as ->. reflexivity.
Qed.

Definition same_chars (l1 l2 : list ascii) : Prop := forall c, In c l1 <-> In c l2.

(* both lists are sorted and hold the same signifiers once each; on signifier sub-tokens the order is antisymmetric *)
Theorem canonical_decorations l1 l2 : same_chars l1 l2 ->
  stable_sort sub_full_leb (add_decos [] l1) = stable_sort sub_full_leb (add_decos [] l2).
Proof.
  intros Hs. destruct (add_decos_spec l1 [] (NoDup_nil _)) as [b1 [E1 [N1 S1]]].
  destruct (add_decos_spec l2 [] (NoDup_nil _)) as [b2 [E2 [N2 S2]]]. cbn [map] in E1, E2. rewrite E1, E2.
  assert (P : Permutation b1 b2) by (apply (NoDup_Permutation N1 N2); intros c; rewrite S1, S2; apply Hs).
  apply (sorted_perm_eq sub_full_leb); try (apply stable_sort_sorted; [apply sub_full_leb_total | apply sub_full_leb_trans]).
  - exact (perm_trans (stable_sort_perm _ _) (perm_trans (Permutation_map _ P) (Permutation_sym (stable_sort_perm _ _)))).
  - intros a b Ha Hb. apply (Permutation_in _ (stable_sort_perm _ _)), in_map_iff in Ha, Hb.
    destruct Ha as [ca [<- _]], Hb as [cb [<- _]]. apply deco_leb_antisym.
Qed.

Theorem canonical_export keep e1 e2 pd l1 l2 : same_chars l1 l2 ->
  export_noterest keep None {| nr_enc := e1; nr_pd := pd; nr_deco := add_decos [] l1 |}
  = export_noterest keep None {| nr_enc := e2; nr_pd := pd; nr_deco := add_decos [] l2 |}.
Proof.
  intros Hs. unfold export_noterest. cbn [nr_pd nr_deco].
  now rewrite <- !(filter_stable_sort sub_full_leb sub_full_leb_total sub_full_leb_trans), (canonical_decorations l1 l2 Hs).
Qed.

Lemma same_chars_perm l1 l2 : Permutation l1 l2 -> same_chars l1 l2.
Proof. intros P c. split; apply Permutation_in; [exact P | symmetry; exact P]. Qed.
Lemma same_chars_dup l c : In c l -> same_chars (c :: l) l.
Proof. intros H x. simpl. split; [intros [<-|Hx]; assumption | tauto]. Qed.
Lemma same_chars_app_comm a b : same_chars (a ++ b) (b ++ a).
Proof. intros c. split; intros H; apply in_app_iff in H as [H|H]; apply in_app_iff; auto. Qed.

Example canonical_example :
  stable_sort sub_full_leb (add_decos [] (chars_of_string "LJL;")) = stable_sort sub_full_leb (add_decos [] (chars_of_string ";JL")).
Proof. vm_compute. reflexivity. Qed.
