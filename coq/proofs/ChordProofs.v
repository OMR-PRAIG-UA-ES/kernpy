(* C01 / C03: the recogniser on the canonical text of a CHORD - notes separated by single blanks, every note carrying
   the chord's signifiers and its own duration - consumes the whole text and returns exactly these notes, in order:
   no note is lost, merged or altered (scan-of-print, for chords of any number of notes). *)
From Coq Require Import List String Ascii Lia.
From KV Require Import Strings Token KernTok CanonProofs ScanProofs.
Import ListNotations.
Open Scope list_scope.

Fixpoint print_chord (notes : list cnote) : chars :=
  match notes with
  | [] => []
  | [n] => print_note n
  | n :: rest => print_note n ++ " "%char :: print_chord rest
  end.

Definition chord_ok (D : chars) (notes : list cnote) : Prop :=
  Forall (fun n => note_ok n /\ nt_decos n = D /\ exists d, nt_dur n = Some d) notes.

Lemma print_chord_head D notes : notes <> [] -> chord_ok D notes -> starts note_start (print_chord notes).
Proof.
  destruct notes as [|n notes]; [contradiction|]. intros _ Hok. inversion_clear Hok as [|? ? [Hn _] _].
  destruct notes; [exact (print_note_head n Hn) | exact (starts_app (fun _ H => H) (print_note_head n Hn))].
Qed.

(* st: a listener state to which the chord's signifiers add up to exactly themselves - the empty one before the first
   note, the one that holds them after it *)
Lemma scan_elements_print D : forall notes fuel st, notes <> [] -> chord_ok D notes -> List.length notes <= fuel ->
  add_decos (ls_deco st) D = map deco_of D ->
  exists ds, scan_elements fuel st (print_chord notes) =
             Some (map (fun n => (print_note n, note_pd n)) notes, {| ls_deco := map deco_of D; ls_dur := ds |}).
Proof.
  induction notes as [|n notes IH]; intros fuel st Hne Hok Hf HR; [contradiction|].
  inversion Hok as [|? ? [Hn [HD [d Ed]]] Hok']; subst.
  destruct fuel as [|fuel]; [simpl in Hf; lia|].
  assert (Hscan : forall X, sep_ok X -> scan_note_or_rest st (print_note n ++ X) =
            Some (print_note n, {| ls_deco := map deco_of (nt_decos n); ls_dur := mk_durs (dur_tokens d) |}, note_pd n, X)).
  { intros X HX. rewrite (note_or_rest_note (scan_note_print st n X Hn HX)), HR, Ed. reflexivity. }
  destruct notes as [|m notes'].
  - cbn [print_chord scan_elements]. pose proof (Hscan [] I) as H. rewrite app_nil_r in H. rewrite H.
    eexists. reflexivity.
  - change (print_chord (n :: m :: notes')) with (print_note n ++ " "%char :: print_chord (m :: notes')).
    cbn [scan_elements]. rewrite (Hscan (" "%char :: _) eq_refl).
    destruct (IH fuel {| ls_deco := map deco_of (nt_decos n); ls_dur := mk_durs (dur_tokens d) |} ltac:(discriminate) Hok' ltac:(simpl in *; lia)
                 (add_decos_present _ _ (incl_refl _))) as [ds E].
    rewrite E. eexists. reflexivity.
Qed.

Lemma print_chord_length notes : List.length notes <= S (List.length (print_chord notes)).
Proof.
  induction notes as [|n [|m r] IH]; cbn [print_chord List.length] in *; try lia.
  rewrite app_length. cbn [List.length]. lia.
Qed.

Definition chord_note (D : chars) (n : cnote) : noterest :=
  {| nr_enc := str (print_note n); nr_pd := note_pd n; nr_deco := map deco_of D |}.

Theorem recognise_print_chord D notes : 2 <= List.length notes -> chord_ok D notes ->
  kern_recognise (str (print_chord notes)) = KTok (TChord (str (print_chord notes)) (map (chord_note D) notes)).
Proof.
  intros Hlen Hok. destruct notes as [|n1 [|n2 rest]]; [simpl in Hlen; lia ..|]. set (notes := n1 :: n2 :: rest) in *.
  assert (Hne : notes <> []) by discriminate.
  assert (HD : add_decos [] D = map deco_of D) by (destruct (Forall_inv Hok) as [Hn1 [<- _]]; apply add_decos_fresh, Hn1).
  destruct (scan_elements_print D notes (S (List.length (print_chord notes))) {| ls_deco := []; ls_dur := [] |} Hne Hok
              (print_chord_length notes) HD) as [ds Es].
  rewrite (recognise_elements (print_chord_head D notes Hne Hok) Es).
  cbn [map]. unfold chord_note. rewrite map_map. reflexivity.
Qed.

Example chord_scan_example :
  let mk p o := {| nt_dur := Some {| cd_num := ["4"%char]; cd_frac := None; cd_dots := 0; cd_grace := "" |}; nt_pitch := p; nt_oct := o;
                   nt_core := []; nt_disp := []; nt_decos := chars_of_string "L;" |} in
  chord_ok (chars_of_string "L;") [mk "c"%char 0; mk "e"%char 1; mk "g"%char 0] /\
  str (print_chord [mk "c"%char 0; mk "e"%char 1; mk "g"%char 0]) = "4cL; 4eeL; 4gL;"%string.
Proof.
  intros mk. split; [|reflexivity].
  assert (H : forall p o, is_pitch_letter p = true -> note_ok (mk p o)).
  { intros p o Hp. unfold note_ok, dur_ok. cbn. repeat split; try reflexivity; try discriminate; try exact Hp.
    repeat constructor; cbn; intuition discriminate. }
  repeat (apply Forall_cons; [split; [apply H; reflexivity | split; [reflexivity | eexists; reflexivity]]|]). apply Forall_nil.
Qed.
