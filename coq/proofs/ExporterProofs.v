(* The exporter model (Exporter.v), for every document tree and every option set.
   C06, C13: a cell is the spine gate, then [cell_of], which reads the categories and the encoding only
     ([append_row_factor], [row_is_projection]); the encoding acts after the category filter
     ([encoding_after_filter]); the default categories given explicitly are those of omitted options
     ([explicit_all_categories]).
   C03: the body of an export is the grid of the stages less the rows that fail [kept_row] ([selection_grid],
     [full_selection_grid], [export_rows_stages]).
   C07: stage ranges compose ([main_rows_split], [segments_partition]) and are validated ([range_validation]).
   C08: an excerpt ends with a terminator row ([ends_terminated], [excerpt_ends_terminated]). *)
From Coq Require Import List String Bool ZArith Lia Sorted.
From KV Require Import Strings CatGen Cat CatProofs EncGen Token Tokenizers TokenProofs Importer Exporter.
Import ListNotations.
Open Scope list_scope.

(* the cell a node contributes once its spine is selected: depends on the category set and the encoding only *)
Definition cell_of (d : doc) (cats : list cat) (e : encoding) (id : nat) : res string :=
  let o := {| o_types := []; o_cats := cats; o_from := None; o_to := None; o_enc := e; o_ids := None |} in
  match node_tok d id with
  | None => Err "AttributeError"
  | Some t =>
    if negb (negb (tok_hidden t) && (is_complex t || mem (tok_cat t) cats)) then Ok (placeholder t)
    else match export_node d o id with
         | Err x => Err x
         | Ok s => Ok (if String.eqb s "" then placeholder t else s)
         end
  end.

Theorem append_row_factor d o id :
  append_row d o id =
  if spine_selected o (header_type d id)
  then match cell_of d (o_cats o) (o_enc o) id with Ok s => Ok (Some s) | Err x => Err x end
  else Ok None.
Proof.
  unfold append_row, cell_of. destruct (spine_selected o (header_type d id)); [|reflexivity]. cbn [negb].
  destruct (node_tok d id) as [t|]; [|reflexivity]. destruct (negb (_ && _)); [reflexivity|].
  (* export_node reads o_cats and o_enc only, and the record of cell_of has those of o *)
  unfold export_node. cbn [o_cats o_enc]. now destruct (match node_tok d id with Some _ => _ | None => _ end).
Qed.

(* the cells of a list of nodes, no gate *)
Fixpoint row_cells (d : doc) (cats : list cat) (e : encoding) (ids : list nat) : res (list string) :=
  match ids with
  | [] => Ok []
  | id :: r => match cell_of d cats e id with
               | Err x => Err x
               | Ok c => match row_cells d cats e r with Err x => Err x | Ok cs => Ok (c :: cs) end
               end
  end.

Lemma row_cells_length d cats e : forall ids cs, row_cells d cats e ids = Ok cs -> List.length cs = List.length ids.
Proof.
  induction ids as [|i ids IH]; intros cs H; cbn [row_cells] in H; [now injection H as <-|].
  destruct (cell_of d cats e i); [|discriminate]. destruct (row_cells d cats e ids); [|discriminate].
  injection H as <-. cbn [List.length]. f_equal. now apply IH.
Qed.

(* an unselected node cannot even fail: the gate comes first *)
Theorem row_is_projection d o : forall ids,
  row_of_stage d o ids = row_cells d (o_cats o) (o_enc o) (filter (fun id => spine_selected o (header_type d id)) ids).
Proof.
  induction ids as [|id r IH]; [reflexivity|]. cbn [row_of_stage filter]. rewrite append_row_factor, IH.
  destruct (spine_selected o (header_type d id)); cbn [row_cells].
  - destruct (cell_of d (o_cats o) (o_enc o) id); reflexivity.
  - destruct (row_cells _ _ _ _); reflexivity.
Qed.

Theorem row_ignores_unselected d o id ids :
  spine_selected o (header_type d id) = false -> row_of_stage d o (id :: ids) = row_of_stage d o ids.
Proof. intros E. rewrite !row_is_projection. cbn [filter]. now rewrite E. Qed.

Theorem select_all_row d o ids : (forall id, In id ids -> spine_selected o (header_type d id) = true) ->
  row_of_stage d o ids = row_cells d (o_cats o) (o_enc o) ids.
Proof. intros H. now rewrite row_is_projection, filter_all. Qed.

Theorem encoding_after_filter cats clef t :
  tokenize E_normalizedKern cats clef t = map_res strip_separators (tokenize E_eKern cats clef t) /\
  tokenize E_bEkern cats clef t = map_res bekern_of_ekern (tokenize E_eKern cats clef t) /\
  tokenize E_bKern cats clef t = map_res strip_token_separator (tokenize E_bEkern cats clef t) /\
  tokenize E_agnosticKern cats clef t = map_res strip_separators (tokenize E_agnosticExtendedKern cats clef t).
Proof. rewrite !tokenize_dispatch. repeat split. Qed.

Lemma explicit_all_categories : canon (valid (Some all_cats) (Some [])) = canon (valid None None).
Proof.
  rewrite (valid_none_eq None None). apply valid_same_set; intros c; split; intros H;
    [apply forest_complete | apply all_cats_complete | exact H | exact H].
Qed.
Lemma explicit_all_categories_mem c : mem c (valid (Some all_cats) (Some [])) = mem c (valid None None).
Proof.
  apply eq_true_iff_eq. rewrite !mem_In, <- (canon_In (valid (Some all_cats) (Some []))), explicit_all_categories.
  apply canon_In.
Qed.

(* the row test of export_string's main loop: not empty, and not all cells among '.', '*', '' *)
Definition kept_row (row : list string) : bool := match row with [] => false | _ => negb (all_nullish row) end.

Lemma main_rows_S d o a n :
  main_rows d o a (S n) =
  match row_of_stage d o (nth a (d_stages d) []), main_rows d o (S a) n with
  | Ok row, Ok rows => Ok (if kept_row row then row :: rows else rows)
  | Err x, _ => Err x
  | Ok _, Err x => Err x
  end.
Proof.
  cbn [main_rows]. destruct (row_of_stage _ _ _) as [row|]; [|reflexivity]. destruct (main_rows d o (S a) n); [|reflexivity].
  destruct row; [reflexivity|]. cbn [kept_row]. destruct (all_nullish _); reflexivity.
Qed.

Theorem main_rows_filter_map d o : forall n a rows,
  (forall k, k < n -> row_of_stage d o (nth (a + k) (d_stages d) []) = Ok (rows k)) ->
  main_rows d o a n = Ok (filter kept_row (map rows (seq 0 n))).
Proof.
  induction n as [|n IH]; intros a rows H; [reflexivity|].
  pose proof (H 0 ltac:(lia)) as H0. rewrite Nat.add_0_r in H0.
  rewrite main_rows_S, H0, (IH (S a) (fun k => rows (S k))).
  - cbn [seq map filter]. now rewrite <- seq_shift, map_map.
  - intros k Hk. rewrite Nat.add_succ_comm. apply H. lia.
Qed.

Lemma main_rows_defined d o : forall n a rows, main_rows d o a n = Ok rows ->
  exists cells, forall k, k < n -> row_of_stage d o (nth (a + k) (d_stages d) []) = Ok (cells k).
Proof.
  induction n as [|n IH]; intros a rows H; [exists (fun _ => []); intros k Hk; lia|]. rewrite main_rows_S in H.
  destruct (row_of_stage d o (nth a (d_stages d) [])) as [row|] eqn:E; [|discriminate].
  destruct (main_rows d o (S a) n) as [rest|] eqn:Er; [|discriminate]. destruct (IH (S a) rest Er) as [cells D].
  exists (fun k => match k with O => row | S k' => cells k' end).
  intros [|k] Hk; [now rewrite Nat.add_0_r | rewrite <- Nat.add_succ_comm; apply D; lia].
Qed.

Theorem selection_grid d o n a rows : main_rows d o a n = Ok rows ->
  exists cells, (forall k, k < n -> row_cells d (o_cats o) (o_enc o)
                   (filter (fun id => spine_selected o (header_type d id)) (nth (a + k) (d_stages d) [])) = Ok (cells k)) /\
                rows = filter kept_row (map cells (seq 0 n)).
Proof.
  intros Hm. destruct (main_rows_defined d o n a rows Hm) as [cells D]. exists cells. split.
  - intros k Hk. rewrite <- row_is_projection. now apply D.
  - rewrite (main_rows_filter_map d o n a cells D) in Hm. now injection Hm.
Qed.

Theorem full_selection_grid d o n a :
  (forall k id, k < n -> In id (nth (a + k) (d_stages d) []) -> spine_selected o (header_type d id) = true) ->
  forall rows, main_rows d o a n = Ok rows ->
  exists cells, (forall k, k < n -> row_cells d (o_cats o) (o_enc o) (nth (a + k) (d_stages d) []) = Ok (cells k)) /\
                rows = filter kept_row (map cells (seq 0 n)) /\
                (forall k, k < n -> List.length (cells k) = List.length (nth (a + k) (d_stages d) [])).
Proof.
  intros Hsel rows Hm. destruct (selection_grid d o n a rows Hm) as (cells & C & E). exists cells.
  assert (C' : forall k, k < n -> row_cells d (o_cats o) (o_enc o) (nth (a + k) (d_stages d) []) = Ok (cells k)).
  { intros k Hk. rewrite <- (C k Hk), filter_all; [reflexivity|]. intros id. now apply Hsel. }
  split; [exact C' | split; [exact E|]]. intros k Hk. exact (row_cells_length _ _ _ _ _ (C' k Hk)).
Qed.

Theorem main_rows_split d o : forall n m a,
  main_rows d o a (n + m) =
  match main_rows d o a n, main_rows d o (a + n) m with
  | Ok r1, Ok r2 => Ok (r1 ++ r2)
  | Err x, _ => Err x
  | Ok _, Err x => Err x
  end.
Proof.
  induction n as [|n IH]; intros m a.
  - rewrite Nat.add_0_r. cbn [main_rows Nat.add]. destruct (main_rows d o a m); reflexivity.
  - cbn [Nat.add]. rewrite !main_rows_S, IH, <- plus_n_Sm. cbn [Nat.add].
    destruct (row_of_stage _ _ _); [|reflexivity]. destruct (main_rows d o (S a) n); [|reflexivity].
    destruct (main_rows d o (S (a + n)) m); [|reflexivity]. destruct (kept_row _); reflexivity.
Qed.

(* the root and the '!!' nodes belong to no spine *)
Lemma row_no_header d o id ids : n_header (get_node d id) = None ->
  match n_tok (get_node d id) with Some (THeader _ _) => False | _ => True end ->
  row_of_stage d o (id :: ids) = row_of_stage d o ids.
Proof.
  intros Eh Ht. apply row_ignores_unselected. unfold header_type, node_tok. rewrite Eh. now destruct (n_tok (get_node d id)) as [[]|].
Qed.

Lemma main_rows_list d o : forall sts outs pre, d_stages d = pre ++ sts ->
  Forall2 (fun ids xs => row_of_stage d o ids = Ok xs) sts outs ->
  main_rows d o (List.length pre) (List.length sts) = Ok (filter kept_row outs).
Proof.
  induction sts as [|ids sts IH]; intros outs pre E F; inversion F as [|? xs ? outs' Hx F']; subst; [reflexivity|].
  cbn [List.length]. rewrite main_rows_S.
  assert (En : nth (List.length pre) (d_stages d) [] = ids) by (now rewrite E, app_nth2, Nat.sub_diag by lia).
  assert (E2 : d_stages d = (pre ++ [ids]) ++ sts) by (now rewrite <- app_assoc).
  pose proof (IH outs' (pre ++ [ids]) E2 F') as H. rewrite app_length, Nat.add_1_r in H. now rewrite En, Hx, H.
Qed.

(* the root stage [0] exports nothing: the root has neither header nor token *)
Lemma export_rows_stages d o sts outs : o_from o = None -> o_to o = None ->
  d_stages d = [0] :: sts -> n_tok (get_node d 0) = None -> n_header (get_node d 0) = None ->
  Forall2 (fun ids xs => row_of_stage d o ids = Ok xs) sts outs -> export_rows d o = Ok (filter kept_row outs).
Proof.
  intros Hf Ht Est R0 H0 F. unfold export_rows, export_body. rewrite Hf, Ht, Est. cbv iota. cbn [negb List.length Nat.sub].
  rewrite Nat.sub_0_r, main_rows_S, Est. cbn [nth]. rewrite (row_no_header d o 0 [] H0) by now rewrite R0.
  pose proof (main_rows_list d o sts outs [[0]] Est F) as M. cbn [List.length] in M. now rewrite M.
Qed.

(* the rows of the pieces [c1, c2), [c2, c3), ... [cn, last) of a stage range cut at [cuts], one after the other *)
Fixpoint seg_rows (d : doc) (o : opts) (cuts : list nat) (last : nat) : res (list (list string)) :=
  match cuts with
  | [] => Ok []
  | c :: rest =>
    let nxt := match rest with c' :: _ => c' | [] => last end in
    match main_rows d o c (nxt - c), seg_rows d o rest last with
    | Ok r1, Ok r2 => Ok (r1 ++ r2)%list
    | Err x, _ => Err x
    | Ok _, Err x => Err x
    end
  end.

Lemma seg_rows_cons d o c rest last :
  seg_rows d o (c :: rest) last =
  match main_rows d o c (hd last rest - c), seg_rows d o rest last with
  | Ok r1, Ok r2 => Ok (r1 ++ r2)
  | Err x, _ => Err x
  | Ok _, Err x => Err x
  end.
Proof. destruct rest; reflexivity. Qed.

Theorem segments_partition d o last : forall cuts c1 rest, cuts = c1 :: rest -> StronglySorted lt cuts ->
  Forall (fun c => c <= last) cuts -> seg_rows d o cuts last = main_rows d o c1 (last - c1).
Proof.
  intros cuts c1 rest ->. revert c1. induction rest as [|c2 rest IH]; intros c1 S F; rewrite seg_rows_cons; cbn [hd].
  - cbn [seg_rows]. destruct (main_rows d o c1 (last - c1)); [now rewrite app_nil_r | reflexivity].
  - apply StronglySorted_inv in S. destruct S as [S Hlt]. apply Forall_inv in Hlt. apply Forall_inv_tail in F.
    rewrite (IH c2 S F). apply Forall_inv in F.
    replace (last - c1) with ((c2 - c1) + (last - c2)) by lia.
    rewrite main_rows_split. now replace (c1 + (c2 - c1)) with c2 by lia.
Qed.

Lemma first_true {A} (a b c : bool) (e x : A) : a = true \/ b = true \/ c = true ->
  (if a then e else if b then e else if c then e else x) = e.
Proof. destruct a, b, c; try reflexivity. intros [H|[H|H]]; discriminate H. Qed.

Theorem range_validation d o :
  (match o_from o with Some f => (f <? 0)%Z | None => false end = true \/
   match o_to o with Some t => (Z.of_nat (List.length (d_mst d)) <? t)%Z | None => false end = true \/
   match o_from o, o_to o with Some f, Some t => (t <? f)%Z | _, _ => false end = true) ->
  export_rows d o = Err "ValueError".
Proof. intros H. unfold export_rows, export_body. now rewrite (first_true _ _ _ _ _ H). Qed.

(* C08 (partial): the last row starts with a spine terminator, or is the synthetic terminator row, sized by the spine
   operators of the row before it *)
Definition ends_terminated (r : list (list string)) : Prop :=
  match rev r with
  | [] => True
  | last :: before =>
    (exists rest, last = "*-"%string :: rest) \/
    (exists prev, before = prev :: tl before /\
                  last = repeat "*-"%string (List.length prev + count_str "*^" prev - count_str "*v" prev))
  end.

Lemma add_terminator_spec rows r : add_terminator true rows = Some r -> ends_terminated r.
Proof.
  unfold add_terminator, ends_terminated. destruct (rev rows) as [|[|c0 rest] before] eqn:Er; [| discriminate |].
  - intros H. injection H as <-. now rewrite Er.
  - destruct (String.eqb_spec c0 "*-") as [->|_]; intros H; injection H as <-.
    + rewrite Er. left. now exists rest.
    + rewrite rev_app_distr, Er. right. now exists (c0 :: rest).
Qed.

Theorem excerpt_ends_terminated d o r t : o_to o = Some t -> export_rows d o = Ok r -> ends_terminated r.
Proof.
  intros Ht. unfold export_rows. rewrite Ht. destruct (export_body d o) as [rows|]; [|discriminate].
  destruct (add_terminator true rows) as [r'|] eqn:E; [|discriminate].
  intros H. injection H as <-. exact (add_terminator_spec _ _ E).
Qed.
