(* C01 / C03 at DOCUMENT level, for single-spine **kern documents: importing a header line, any number of cells and the
   terminator builds one stage per line with one node per cell holding the token of that cell ([sp1]); the default export
   of that document is the list of the tokens' exports.  Hence for a document whose cells are in normal form ([normal_cell]:
   each cell is the export of its own token, [good] - canonical notes, rests, chords, barlines, interpretations ...) export o
   import is the identity on the text, and export o import o export o import = export o import.
   For C13, [export_one_spine_opts] is the export of such a document under any options without a measure range that select
   the spine and whose encoding does not look at the clef ([clef_free]): line by line a function of the line's token and of
   (categories, encoding) only.  [tok_cell], [good], [normal_cell] and [clef_free] also serve GridIdentityProofs and the props. *)
From Coq Require Import List String Ascii Bool Arith Lia.
From KV Require Import Strings CatGen Cat EncGen OptGen Token Tokenizers SpineImp KernTok Importer Exporter SpineImpProofs
  TokenProofs TreeProofs ImporterProofs LineReaderProofs ReadBackProofs ExporterProofs ScanProofs ExportFixedProofs RestProofs
  RestFixedProofs ChordProofs ChordFixedProofs.
Import ListNotations.
Open Scope list_scope.

Definition hdr_tok : token := THeader "**kern" 0.
Definition term_tok : token := TSimple "*-" SPINE_OPERATION "SpineOperationToken".

(* the document built from the one-spine text with the tokens [toks]: node 0 is the root, node 1 the header, node j + 2
   holds the j-th token under header 1; one node per stage *)
Record sp1 (toks : list token) (d : doc) : Prop := {
  p_len : List.length (d_nodes d) = List.length toks + 2;
  p_stages : d_stages d = map (fun j => [j]) (seq 0 (List.length toks + 2));
  p_hdr : n_tok (get_node d 1) = Some hdr_tok /\ n_header (get_node d 1) = Some 1;
  p_root : n_tok (get_node d 0) = None /\ n_header (get_node d 0) = None;
  p_toks : forall j, j < List.length toks ->
           n_tok (get_node d (j + 2)) = nth_error toks j /\ n_header (get_node d (j + 2)) = Some 1 }.

(* ... and the importer's state after these lines: the last node is the one parent handed on *)
Record sp1s (toks : list token) (s : istate) : Prop := {
  q_doc : sp1 toks (i_doc s);
  q_stage : i_stage s = List.length toks + 1;
  q_next : i_next s = [List.length toks + 1];
  q_prehdr : i_prehdr s = 0 }.

(* a plain cell: no header, no spine operator, no comment *)
Definition plain_cell (c : string) : Prop :=
  startswith "!!" c = false /\ startswith "**" c = false /\ mem_str c spine_operations = false /\ startswith "!" c = false.

(* same tokens and headers (same_nodes_hdr), same stages *)
Definition same_view (d d' : doc) : Prop := same_nodes_hdr d d' /\ d_stages d' = d_stages d.

Lemma view_trans a b c : same_view a b -> same_view b c -> same_view a c.
Proof.
  intros [[L1 H1] S1] [[L2 H2] S2]. split; [split|]; try congruence.
  intros i. destruct (H1 i), (H2 i). split; congruence.
Qed.

Lemma sp1_same toks d d' : d_nodes d' = d_nodes d -> d_stages d' = d_stages d -> sp1 toks d -> sp1 toks d'.
Proof. intros En Es [A B C R D]. unfold get_node in *. constructor; unfold get_node; rewrite ?En, ?Es; assumption. Qed.

Lemma last_header toks d : sp1 toks d -> n_header (get_node d (List.length toks + 1)) = Some 1.
Proof.
  intros [_ _ [_ C2] _ D]. destruct toks as [|t toks] using rev_ind; [exact C2|].
  rewrite app_length in *. cbn [List.length] in *. replace (List.length toks + 1 + 1) with (List.length toks + 2) by lia.
  apply D. lia.
Qed.

Lemma sp1_appended {toks d t d'} : sp1 toks d -> fresh_tok t = false ->
  appended d (List.length toks + 2) (List.length toks + 1) t d' -> sp1 (toks ++ [t]) d'.
Proof.
  intros Q Hf Ap. pose proof (last_header _ _ Q) as Hl. destruct (grows_appended Ap) as [_ Old].
  destruct Ap as [Ad St _ _], Q as [A B C R D]. pose proof (adds_new Ad) as New. rewrite A in New, Old.
  constructor; rewrite ?app_length; cbn [List.length].
  - rewrite (adds_length Ad). lia.
  - rewrite St. unfold stages_after. rewrite B, map_length, seq_length, Nat.eqb_refl, A.
    replace (List.length toks + 1 + 2) with (S (List.length toks + 2)) by lia. now rewrite seq_S, map_app.
  - destruct (Old 1 ltac:(lia)) as [-> ->]. exact C.
  - destruct (Old 0 ltac:(lia)) as [-> ->]. exact R.
  - intros j Hj. assert (Cases : j < List.length toks \/ j = List.length toks) by lia. destruct Cases as [Hj'| ->].
    + destruct (Old (j + 2) ltac:(lia)) as [-> ->]. rewrite nth_error_app1 by exact Hj'. now apply D.
    + rewrite New, new_node_header, Hl, nth_error_app2, Nat.sub_diag by (exact Hf || lia). split; reflexivity.
Qed.

Lemma one_cell_row bad s c p t k b : startswith "!!" c = false -> c <> "*x"%string ->
  cell_case bad [c] (begin_row s) 0 c p t k b -> S (i_stage s) <= List.length (d_stages (i_doc s)) ->
  exists d', appended (i_doc s) (S (i_stage s)) p t d' /\ step_row bad s [c] = IOk (end_row (after_cell (begin_row s) d' k) b).
Proof.
  intros Em Hx C Hst. destruct (step_cell_complete C Hst Hx) as (d' & A & E).
  exists d'. split; [exact A|]. rewrite (step_row_cells _ _ _ _ Em). cbn [step_cells]. now rewrite E.
Qed.

Lemma header_row bad : exists s, step_row bad init_state ["**kern"%string] = IOk s /\ sp1s [] s /\ state_ok s.
Proof.
  destruct (one_cell_row bad init_state "**kern" 0 hdr_tok 1 false eq_refl ltac:(discriminate)
              (cc_header bad _ (begin_row init_state) 0 "**kern" eq_refl) (le_n _)) as (d' & [Ad St _ _] & E).
  eexists. split; [exact E|]. split.
  - constructor; try reflexivity. constructor; cbn [end_row i_doc List.length].
    + exact (adds_length Ad).
    + exact St.
    + split; [exact (f_equal n_tok (adds_new Ad)) | exact (f_equal n_header (adds_new Ad))].
    + split; [exact (adds_old Ad n_tok 0 (fun _ _ => eq_refl) Nat.lt_0_1)
             | exact (adds_old Ad n_header 0 (fun _ _ => eq_refl) Nat.lt_0_1)].
    + intros j Hj. lia.
  - apply (state_ok_invariant bad [["**kern"%string]] init_state _ init_state_ok). cbn [run_rows]. now rewrite E.
Qed.

Lemma data_row bad toks s c t : sp1s toks s -> plain_cell c -> import_cell bad "**kern" c = RTok t ->
  exists s', step_row bad s [c] = IOk s' /\ sp1s (toks ++ [t]) s'.
Proof.
  intros [Q Est En Eph] (P1 & P2 & P3 & P4) Hi. pose proof Q as [A B [C1 _] _ _].
  eassert (C : cell_case bad [c] (begin_row s) 0 c _ t 1 _).
  { apply (cc_tok bad [c] (begin_row s) 0 c [List.length toks + 1] t);
      [exact P2 | exact P3 | cbn [begin_row i_prev]; now rewrite En | apply Nat.lt_0_1|].
    unfold cell_token. rewrite P4. exists 1. split; [exact (last_header _ _ Q)|].
    unfold header_text. cbn [begin_row i_doc]. rewrite C1. cbn [hdr_tok tok_enc]. now rewrite Hi. }
  destruct (one_cell_row _ _ _ _ _ _ _ P1 ltac:(intros ->; discriminate P3) C) as (d' & Ap & E).
  { rewrite B, map_length, seq_length, Est. lia. }
  eexists. split; [exact E|]. rewrite Est, <- Nat.add_succ_r in Ap.
  constructor; cbn [end_row after_cell begin_row i_doc i_stage i_next i_prehdr repeat app]; rewrite ?A, ?app_length; cbn [List.length]; try lia.
  - apply (sp1_same _ d'); [now destruct (_ || _) ..|].
    exact (sp1_appended Q (cell_tok_ok_fresh _ (import_cell_ok Hi)) Ap).
  - f_equal. lia.
Qed.

Lemma term_row bad toks s : sp1s toks s ->
  exists s', step_row bad s ["*-"%string] = IOk s' /\ sp1 (toks ++ [term_tok]) (i_doc s').
Proof.
  intros [Q Est En Eph]. pose proof Q as [A B _ _ _].
  assert (C : cell_case bad ["*-"%string] (begin_row s) 0 "*-" (List.length toks + 1) term_tok 0 false).
  { apply (cc_op bad ["*-"%string] (begin_row s) 0 "*-" [List.length toks + 1]); try reflexivity;
      [cbn [begin_row i_prev]; now rewrite En | apply Nat.lt_0_1]. }
  destruct (one_cell_row bad s "*-" _ _ _ _ eq_refl ltac:(discriminate) C) as (d' & Ap & E).
  { rewrite B, map_length, seq_length, Est. lia. }
  eexists. split; [exact E|]. rewrite Est, <- Nat.add_succ_r in Ap. cbn [end_row i_doc]. exact (sp1_appended (t := term_tok) Q eq_refl Ap).
Qed.

Lemma data_rows bad : forall cells toks toks0 s, sp1s toks0 s ->
  Forall2 (fun c t => plain_cell c /\ import_cell bad "**kern" c = RTok t) cells toks ->
  exists s', run_rows bad s (map (fun c => [c]) cells) = IOk s' /\ sp1s (toks0 ++ toks) s'.
Proof.
  induction cells as [|c cells IH]; intros toks toks0 s Q F; inversion F as [|? t ? toks' [Hp Hi] F']; subst.
  - exists s. split; [reflexivity | now rewrite app_nil_r].
  - destruct (data_row bad toks0 s c t Q Hp Hi) as (s1 & E1 & Q1).
    destruct (IH toks' (toks0 ++ [t]) s1 Q1 F') as (s2 & E2 & Q2).
    exists s2. cbn [map run_rows]. rewrite E1. split; [exact E2 | now rewrite <- app_assoc in Q2].
Qed.

Definition one_spine (cells : list string) : list (list string) := ["**kern"%string] :: map (fun c => [c]) cells ++ [["*-"%string]].

Theorem import_one_spine bad cells toks :
  Forall2 (fun c t => plain_cell c /\ import_cell bad "**kern" c = RTok t) cells toks ->
  exists s, run_rows bad init_state (one_spine cells) = IOk s /\ sp1 (toks ++ [term_tok]) (i_doc s).
Proof.
  intros F. destruct (header_row bad) as (s1 & E1 & Q1 & _).
  destruct (data_rows bad cells toks [] s1 Q1 F) as (s2 & E2 & Q2).
  destruct (term_row bad _ s2 Q2) as (s3 & E3 & Q3).
  exists s3. unfold one_spine. cbn [run_rows]. rewrite E1, run_rows_app, E2. cbn [ibind run_rows]. rewrite E3. split; [reflexivity | exact Q3].
Qed.

(* the cell the exporter makes of a token of a selected spine when the encoding does not look at the clef:
   [header_cell] below is this cell for the header token, [cell_of_tok] for a token that is no header *)
Definition tok_cell (o : opts) (t : token) : res string :=
  if negb (negb (tok_hidden t) && (is_complex t || mem (tok_cat t) (o_cats o))) then Ok (placeholder t)
  else match header_for (o_enc o) t with
       | Err e => Err e
       | Ok t' => match tokenize (o_enc o) (o_cats o) None t' with
                  | Err e => Err e
                  | Ok s => Ok (if String.eqb s "" then placeholder t else s)
                  end
       end.

Definition cell_of_tok (o : opts) (t : token) : res string :=
  if negb (negb (tok_hidden t) && (is_complex t || mem (tok_cat t) (o_cats o))) then Ok (placeholder t)
  else match tokenize (o_enc o) (o_cats o) None t with
       | Err e => Err e
       | Ok s => Ok (if String.eqb s "" then placeholder t else s)
       end.

Definition header_cell (o : opts) : res string :=
  if negb (negb (tok_hidden hdr_tok) && (is_complex hdr_tok || mem (tok_cat hdr_tok) (o_cats o))) then Ok (placeholder hdr_tok)
  else match header_for (o_enc o) hdr_tok with
       | Err e => Err e
       | Ok t' => match tokenize (o_enc o) (o_cats o) None t' with
                  | Err e => Err e
                  | Ok s => Ok (if String.eqb s "" then placeholder hdr_tok else s)
                  end
       end.

(* the tokenizer of [e] ignores the clef it is handed (the ClefToken in force at the node): so for the four encodings that
   are not agnostic *)
Definition clef_free (e : encoding) : Prop := forall cats clef t, tokenize e cats clef t = tokenize e cats None t.

Lemma clef_free_kern : clef_free E_normalizedKern. Proof. intros cats clef t. reflexivity. Qed.
Lemma clef_free_ekern : clef_free E_eKern. Proof. intros cats clef t. reflexivity. Qed.
Lemma clef_free_bkern : clef_free E_bKern. Proof. intros cats clef t. reflexivity. Qed.
Lemma clef_free_bekern : clef_free E_bEkern. Proof. intros cats clef t. reflexivity. Qed.

Definition kept_rows (l : list string) : list (list string) :=
  map (fun x => [x]) (filter (fun x => negb (mem_str x nullish_tokens)) l).

Lemma tok_cell_plain o t : match t with THeader _ _ => False | _ => True end -> tok_cell o t = cell_of_tok o t.
Proof. now destruct t. Qed.

Lemma append_row_tok d o id t : n_tok (get_node d id) = Some t -> spine_selected o (header_type d id) = true ->
  clef_free (o_enc o) -> append_row d o id = map_res Some (tok_cell o t).
Proof.
  intros Et Hsel Hcf. rewrite append_row_factor, Hsel. unfold cell_of, export_node, node_tok, tok_cell. rewrite Et. cbn [o_cats o_enc].
  destruct (negb _); [reflexivity|]. destruct (header_for (o_enc o) t) as [t'|e]; [|reflexivity].
  rewrite (Hcf (o_cats o) _ t'). now destruct (tokenize _ _ None t').
Qed.

Lemma kept_rows_filter l : filter kept_row (map (fun x => [x]) l) = kept_rows l.
Proof.
  unfold kept_rows. induction l as [|x l IH]; [reflexivity|]. cbn [map filter kept_row all_nullish forallb]. rewrite andb_true_r, IH.
  now destruct (mem_str x nullish_tokens).
Qed.

Section OneSpineExport.
  Variables (o : opts) (d : doc).
  Hypothesis Hsel : spine_selected o (Some ("**kern"%string, 0)) = true.
  Hypothesis Hcf : clef_free (o_enc o).
  Hypothesis Hhdr : n_tok (get_node d 1) = Some hdr_tok.

  Lemma cell_export id t : n_tok (get_node d id) = Some t -> n_header (get_node d id) = Some 1 ->
    match t with THeader _ _ => False | _ => True end -> append_row d o id = map_res Some (cell_of_tok o t).
  Proof.
    intros Et Eh Hnh. rewrite <- (tok_cell_plain o t Hnh). apply append_row_tok; [exact Et | | exact Hcf].
    unfold header_type, node_tok. rewrite Et, Eh, Hhdr. now destruct t.
  Qed.

  Lemma rows_of_toks : forall toks outs a,
    Forall2 (fun t x => match t with THeader _ _ => False | _ => True end /\ cell_of_tok o t = Ok x) toks outs ->
    (forall j, j < List.length toks -> n_tok (get_node d (a + j)) = nth_error toks j /\ n_header (get_node d (a + j)) = Some 1) ->
    Forall2 (fun ids xs => row_of_stage d o ids = Ok xs) (map (fun j => [j]) (seq a (List.length toks))) (map (fun x => [x]) outs).
  Proof.
    induction toks as [|t toks IH]; intros outs a F H; inversion F as [|? x ? outs' [G1 G2] F']; subst; [constructor|].
    cbn [List.length seq map]. constructor.
    - destruct (H 0 ltac:(simpl; lia)) as [T0 H0]. rewrite Nat.add_0_r in T0, H0.
      cbn [row_of_stage]. now rewrite (cell_export a t T0 H0 G1), G2.
    - apply IH; [exact F'|]. intros j Hj. rewrite Nat.add_succ_comm. apply (H (S j)). simpl. lia.
  Qed.
End OneSpineExport.

Theorem export_one_spine_opts o d toks outs h : sp1 toks d ->
  spine_selected o (Some ("**kern"%string, 0)) = true -> clef_free (o_enc o) -> o_from o = None -> o_to o = None ->
  header_cell o = Ok h ->
  Forall2 (fun t x => match t with THeader _ _ => False | _ => True end /\ cell_of_tok o t = Ok x) toks outs ->
  export_rows d o = Ok (kept_rows (h :: outs)).
Proof.
  intros [A B [C1 C2] [R1 R2] D] Hsel Hcf Hfrom Hto Hh F. rewrite <- kept_rows_filter.
  rewrite Nat.add_comm in B. apply (export_rows_stages d o _ (map (fun x => [x]) (h :: outs)) Hfrom Hto B R1 R2).
  cbn [seq map]. constructor.
  - assert (Ht : spine_selected o (header_type d 1) = true) by (unfold header_type, node_tok; now rewrite C1).
    cbn [row_of_stage]. rewrite (append_row_tok d o 1 hdr_tok C1 Ht Hcf). change (tok_cell o hdr_tok) with (header_cell o). now rewrite Hh.
  - apply (rows_of_toks o d Hsel Hcf C1 toks outs 2 F). intros j Hj. rewrite Nat.add_comm. now apply D.
Qed.

(* [t] comes out as the cell [x] in the default export: no header (those pass through header_for), not hidden (a hidden
   barline comes out as "."), its kern export with every category is [x], [x] not nullish (a line of nullish cells is not written) *)
Definition good (t : token) (x : string) : Prop :=
  match t with THeader _ _ => False | _ => True end /\ tok_hidden t = false /\
  kern_tokenize all_cats t = Ok x /\ mem_str x nullish_tokens = false.

(* a simple token is exported as its text, less the separators *)
Lemma good_simple c k cls : strip_separators c = c -> mem_str c nullish_tokens = false -> good (TSimple c k cls) c.
Proof.
  intros Hs Hn. repeat split; [|exact Hn]. unfold kern_tokenize, ekern_tokenize. cbn [export_token map_res tok_enc]. now rewrite Hs.
Qed.

Lemma good_cell t x : good t x -> cell_of_tok default_opts t = Ok x.
Proof.
  intros (_ & Hh & Hx & Hn). unfold cell_of_tok. change (o_cats default_opts) with all_cats. rewrite Hh, mem_all, orb_true_r. cbn [negb andb].
  change (tokenize (o_enc default_opts) all_cats None t) with (kern_tokenize all_cats t). rewrite Hx.
  now destruct x.
Qed.

Lemma good_rows toks outs : Forall2 good toks outs ->
  kept_rows outs = map (fun x => [x]) outs /\
  Forall2 (fun t x => match t with THeader _ _ => False | _ => True end /\ cell_of_tok default_opts t = Ok x) toks outs.
Proof.
  unfold kept_rows. induction 1 as [|t x toks outs G _ [IH1 IH2]]; [split; constructor|]. cbn [filter map]. split.
  - destruct G as (_ & _ & _ & ->). cbn [negb map]. now rewrite IH1.
  - constructor; [split; [apply G | exact (good_cell t x G)] | exact IH2].
Qed.

Theorem export_one_spine d toks outs : sp1 toks d -> Forall2 good toks outs ->
  export_rows d default_opts = Ok (["**kern"%string] :: map (fun x => [x]) outs).
Proof.
  intros Q F. destruct (good_rows toks outs F) as [<- F'].
  exact (export_one_spine_opts default_opts d toks outs "**kern" Q eq_refl clef_free_kern eq_refl eq_refl eq_refl F').
Qed.

Theorem one_spine_export bad cells toks outs :
  Forall2 (fun c t => plain_cell c /\ import_cell bad "**kern" c = RTok t) cells toks -> Forall2 good toks outs ->
  exists s, run_rows bad init_state (one_spine cells) = IOk s /\ export_rows (i_doc s) default_opts = Ok (one_spine outs).
Proof.
  intros F G. destruct (import_one_spine bad cells toks F) as [s [E Q]]. exists s. split; [exact E|].
  rewrite (export_one_spine (i_doc s) (toks ++ [term_tok]) (outs ++ ["*-"%string]) Q).
  - unfold one_spine. now rewrite map_app.
  - apply Forall2_app; [exact G | constructor; [now apply good_simple | constructor]].
Qed.

(* a cell in normal form: it is the export of its own token *)
Definition normal_cell (bad : list string) (c : string) : Prop :=
  plain_cell c /\ exists t, import_cell bad "**kern" c = RTok t /\ good t c.

Lemma normal_split bad : forall cells, Forall (normal_cell bad) cells ->
  exists toks, Forall2 (fun c t => plain_cell c /\ import_cell bad "**kern" c = RTok t) cells toks /\ Forall2 good toks cells.
Proof.
  induction cells as [|c cells IH]; intros H; [exists []; split; constructor|].
  inversion H as [|? ? [Hp [t [Hi Hg]]] H']; subst. destruct (IH H') as [toks [F G]].
  exists (t :: toks). split; constructor; auto.
Qed.

Theorem one_spine_identity bad cells : Forall (normal_cell bad) cells ->
  exists s, run_rows bad init_state (one_spine cells) = IOk s /\ export_rows (i_doc s) default_opts = Ok (one_spine cells).
Proof. intros H. destruct (normal_split bad cells H) as [toks [F G]]. exact (one_spine_export bad cells toks cells F G). Qed.

Lemma one_spine_Forall (P : list string -> Prop) cells :
  P ["**kern"%string] -> Forall (fun c => P [c]) cells -> P ["*-"%string] -> Forall P (one_spine cells).
Proof. intros H1 H H2. constructor; [exact H1|]. apply Forall_app. split; [now apply Forall_map | now constructor]. Qed.

Theorem one_spine_text_fixed_point bad cells : Forall (normal_cell bad) cells -> (forall c, In c cells -> cell_ok c = true) ->
  let text := render_rows (one_spine cells) in
  exists d, load_file bad text = IOk d /\ dumps d default_opts = Ok text /\
            (plain (chars_of_string text) = true -> loads bad text = IOk d).
Proof.
  intros H Hc text.
  assert (Hrows : rows_of_file text = one_spine cells).
  { unfold text. rewrite export_read_back_file.
    - (* every line is written: the two generated tables OptGen.empty_row_tokens and nullish_tokens hold the same texts *)
      apply filter_all, Forall_forall, one_spine_Forall; [reflexivity | | reflexivity]. eapply Forall_impl; [|exact H].
      intros c (_ & t & _ & _ & _ & _ & Hn). cbn [empty_row forallb]. change empty_row_tokens with nullish_tokens. now rewrite Hn.
    - enough (F : Forall (fun r => forall c, In c r -> cell_ok c = true) (one_spine cells))
        by (intros r c Hr; exact (proj1 (Forall_forall _ _) F r Hr c)).
      apply one_spine_Forall; [intros c [<-|[]]; reflexivity | | intros c [<-|[]]; reflexivity].
      apply Forall_forall. intros c0 H0 c [<-|[]]. exact (Hc c0 H0). }
  destruct (one_spine_identity bad cells H) as [s [E X]].
  assert (L : load_file bad text = IOk (i_doc s)) by (unfold load_file; now rewrite Hrows, E).
  exists (i_doc s). split; [exact L|]. split; [unfold dumps; now rewrite X | intros Hp; now rewrite <- (load_equals_loads _ _ Hp)].
Qed.

Lemma import_cell_kern bad c t : mem_str c bad = false -> kern_recognise c = KTok t -> import_cell bad "**kern" c = RTok t.
Proof.
  intros Hb Hk. unfold import_cell. destruct (String.eqb c "") eqn:E; [apply String.eqb_eq in E; now subst c|].
  rewrite Hb, Hk. unfold import_token. rewrite kern_header_kind. unfold import_kind. rewrite E. reflexivity.
Qed.

Lemma first_char_plain c r : Ascii.eqb c "!" = false -> Ascii.eqb c "*" = false -> plain_cell (String c r).
Proof.
  intros H1 H2. unfold plain_cell. cbn [startswith]. rewrite (Ascii.eqb_sym "!" c), (Ascii.eqb_sym "*" c), H1, H2.
  repeat split. unfold spine_operations. cbn [mem_str String.eqb]. rewrite H2. reflexivity.
Qed.

Lemma note_head_normal bad l t : starts note_start l -> mem_str (str l) bad = false ->
  kern_recognise (str l) = KTok t -> match t with THeader _ _ => False | _ => True end -> tok_hidden t = false ->
  kern_tokenize all_cats t = Ok (str l) -> normal_cell bad (str l).
Proof.
  intros Hs Hb Hk Hnh Hhid Hx. destruct l as [|c r]; [destruct Hs|]. pose proof (fun k => class_neq note_start c k Hs) as N. pose proof (N "*"%char eq_refl) as H2.
  split; [exact (first_char_plain c _ (N "!"%char eq_refl) H2)|]. exists t. split; [now apply import_cell_kern|].
  repeat split; try assumption. unfold nullish_tokens. cbn [str string_of_chars mem_str String.eqb]. rewrite H2, (N "."%char eq_refl). destruct r; reflexivity.
Qed.

Theorem canonical_note_is_normal bad n : note_ok n -> canonical_order n -> mem_str (str (print_note n)) bad = false ->
  normal_cell bad (str (print_note n)).
Proof.
  intros Hok Hc Hb.
  exact (note_head_normal bad _ _ (print_note_head n Hok) Hb (recognise_print_note n Hok) I eq_refl (kern_export_canonical_note n Hok Hc)).
Qed.

Corollary canonical_notes_document_fixed_point bad notes :
  Forall (fun n => note_ok n /\ canonical_order n /\ mem_str (str (print_note n)) bad = false) notes ->
  (forall n, In n notes -> cell_ok (str (print_note n)) = true) ->
  let text := render_rows (one_spine (map (fun n => str (print_note n)) notes)) in
  exists d, load_file bad text = IOk d /\ dumps d default_opts = Ok text.
Proof.
  intros H Hc text.
  destruct (one_spine_text_fixed_point bad (map (fun n => str (print_note n)) notes)) as [d [E1 [E2 _]]].
  - rewrite Forall_forall in *. intros c Hin. apply in_map_iff in Hin. destruct Hin as [n [<- Hn]].
    destruct (H n Hn) as [A [B C]]. apply canonical_note_is_normal; assumption.
  - intros c Hin. apply in_map_iff in Hin. destruct Hin as [n [<- Hn]]. exact (Hc n Hn).
  - exists d. split; assumption.
Qed.

Example one_spine_example :
  match loads [] "**kern
*clefG2
=1
4c;L
8.dd#
2r
==
*-
" with IOk d => dumps d default_opts | _ => Err "import" end = Ok "**kern
*clefG2
=
4c;L
8.dd#
2r
==
*-
"%string.
Proof. vm_compute. reflexivity. Qed.

Theorem canonical_rest_is_normal bad r : rest_ok r -> rest_canonical_order r -> mem_str (str (print_rest r)) bad = false ->
  normal_cell bad (str (print_rest r)).
Proof.
  intros Hok Hc Hb.
  exact (note_head_normal bad _ _ (print_rest_head r Hok) Hb (recognise_print_rest r Hok) I eq_refl (kern_export_canonical_rest r Hok Hc)).
Qed.

Theorem canonical_chord_is_normal bad D notes : 2 <= List.length notes -> chord_ok D notes -> Forall canonical_order notes ->
  mem_str (str (print_chord notes)) bad = false -> normal_cell bad (str (print_chord notes)).
Proof.
  intros Hlen Hok Hc Hb. assert (Hne : notes <> []) by (intros ->; simpl in Hlen; lia).
  exact (note_head_normal bad _ _ (print_chord_head D notes Hne Hok) Hb (recognise_print_chord D notes Hlen Hok) I eq_refl (kern_export_canonical_chord D notes Hok Hc)).
Qed.

Theorem verbatim_cell_is_normal bad c k cls : plain_cell c -> c <> ""%string -> mem_str c bad = false ->
  kern_recognise c = KTok (TSimple c k cls) -> strip_separators c = c -> mem_str c nullish_tokens = false ->
  normal_cell bad c.
Proof.
  intros Hp Hne Hb Hk Hs Hn. split; [exact Hp|]. exists (TSimple c k cls).
  split; [now apply import_cell_kern | now apply good_simple].
Qed.

Example mixed_document_cells_are_normal :
  Forall (normal_cell []) ["*clefG2"; "*M4/4"; "4c;L"; "8.dd#"]%string.
Proof.
  assert (V : forall c k cls, plain_cell c -> c <> ""%string -> kern_recognise c = KTok (TSimple c k cls) -> strip_separators c = c ->
              mem_str c nullish_tokens = false -> normal_cell [] c)
    by (intros; eapply verbatim_cell_is_normal; try eassumption; reflexivity).
  apply Forall_cons; [eapply (V "*clefG2"%string); try reflexivity; try discriminate; repeat split|].
  apply Forall_cons; [eapply (V "*M4/4"%string); try reflexivity; try discriminate; repeat split|].
  apply Forall_cons; [split; [repeat split|]; eexists; split; [vm_compute; reflexivity|]; repeat split|].
  apply Forall_cons; [split; [repeat split|]; eexists; split; [vm_compute; reflexivity|]; repeat split|].
  apply Forall_nil.
Qed.
