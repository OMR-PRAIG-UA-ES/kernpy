(* Structural invariants of the imported tree (C02), each kept when a node is appended (ImporterProofs), hence true of
   every imported document: node ids are positions in the store, parents precede their children, a node is registered
   exactly in the children list of its parent ([tree_ok]; [add_node_spec] is one call of add_node in these terms); every
   node is still, children apart, the node that was made for its token under its parent ([built]).  From the second: every
   node that has a header points to a HeaderToken node, its own or the one its parent has ([hdr_ok]).
   [state_ok] is tree_ok and: the ids the importer's state holds (the parents of the next line) are nodes of the store, so
   that a new node always hangs under an existing one.  [nodes_invariant] takes a property of the node store that appending
   under an existing parent keeps to every state the importer reaches; [built] goes through it, and the invariants of
   HeaderSelfProofs and SigForceProofs are read off [built]. *)
From Coq Require Import List ZArith Lia.
From KV Require Import Token Importer ImporterProofs.
Import ListNotations.
Open Scope list_scope.

(* the fields add_node fixes for good.  n_header and n_sigs do not change later either, but set_header_self / sig_update
   write them right after add_node: statements about add_node name them apart *)
Definition core (n : node) := (n_id n, n_stage n, n_tok n, n_parent n, n_lastop n).

Record tree_ok (d : doc) : Prop := {
  t_nonempty : 0 < List.length (d_nodes d);
  t_ids : forall i, i < List.length (d_nodes d) -> n_id (get_node d i) = i;
  t_parent : forall i p, i < List.length (d_nodes d) -> n_parent (get_node d i) = Some p ->
               p < i /\ In i (n_children (get_node d p));
  t_children : forall p c, p < List.length (d_nodes d) -> In c (n_children (get_node d p)) ->
               c < List.length (d_nodes d) /\ n_parent (get_node d c) = Some p;
  t_root : n_parent (get_node d 0) = None;
  t_hasparent : forall i, 0 < i -> i < List.length (d_nodes d) -> n_parent (get_node d i) <> None;
  t_nodup : forall p, p < List.length (d_nodes d) -> NoDup (n_children (get_node d p)) }.

Lemma tree_ok_empty : tree_ok empty_doc.
Proof.
  constructor; simpl.
  - lia.
  - intros i H. assert (i = 0) by lia. subst. reflexivity.
  - intros i p H. assert (i = 0) by lia. subst. discriminate.
  - intros p c H. assert (p = 0) by lia. subst. simpl. tauto.
  - reflexivity.
  - intros i H0 H. lia.
  - intros p H. assert (p = 0) by lia. subst. constructor.
Qed.

Lemma tree_ok_nodes d d' : d_nodes d' = d_nodes d -> tree_ok d -> tree_ok d'.
Proof. intros E [H1 H2 H3 H4 H5 H6 H7]. unfold get_node in *. constructor; unfold get_node; rewrite E; assumption. Qed.

Lemma tree_ok_adds {d p nd d'} : tree_ok d -> p < List.length (d_nodes d) -> adds d p nd d' ->
  n_id nd = List.length (d_nodes d) -> n_parent nd = Some p -> n_children nd = [] -> tree_ok d'.
Proof.
  intros T Hp A Eid Epar Ech. set (n := List.length (d_nodes d)) in *.
  pose proof (adds_length A) as L. pose proof (adds_new A) as New. fold n in L, New.
  pose proof (@adds_old _ _ _ _ A) as Old. fold n in Old.
  pose proof (adds_cases A) as Cases. rewrite L in Cases. fold n in Cases.
  constructor; rewrite ?L.
  - lia.
  - intros i Hi. destruct (Cases i Hi) as [Hi'| ->]; [|now rewrite New]. rewrite (Old _ n_id) by easy. now apply T.
  - intros i q Hi Hq. destruct (Cases i Hi) as [Hi'| ->].
    + rewrite (Old _ n_parent) in Hq by easy. destruct (t_parent d T i q Hi' Hq) as [Q1 Q2]. split; [exact Q1|].
      rewrite (adds_children A) by (fold n; lia). apply in_app_iff. now left.
    + rewrite New, Epar in Hq. injection Hq as <-. split; [exact Hp|].
      rewrite (adds_children A), Nat.eqb_refl by exact Hp. apply in_app_iff. right. now left.
  - intros q c Hq Hin. destruct (Cases q Hq) as [Hq'| ->]; [|rewrite New, Ech in Hin; contradiction].
    rewrite (adds_children A) in Hin by exact Hq'. apply in_app_iff in Hin. destruct Hin as [Hin|Hin].
    + destruct (t_children d T q c Hq' Hin) as [C1 C2]. fold n in C1. split; [lia|]. now rewrite (Old _ n_parent).
    + destruct (Nat.eqb_spec q p) as [->|]; [|contradiction]. destruct Hin as [<-|[]]. fold n. split; [lia|]. now rewrite New.
  - rewrite (Old _ n_parent) by (easy || apply T). apply T.
  - intros i H0 Hi. destruct (Cases i Hi) as [Hi'| ->]; [|rewrite New, Epar; discriminate]. rewrite (Old _ n_parent) by easy. now apply T.
  - intros q Hq. destruct (Cases q Hq) as [Hq'| ->]; [|rewrite New, Ech; constructor].
    rewrite (adds_children A) by exact Hq'. destruct (Nat.eqb q p); [|rewrite app_nil_r; now apply T].
    pose proof (Add_app n (n_children (get_node d q)) []) as Ha. rewrite app_nil_r in Ha. apply (NoDup_Add Ha).
    split; [now apply T|]. intros Hin. destruct (t_children d T q n Hq' Hin). unfold n in *. lia.
Qed.

Lemma tree_ok_appended {d st p t d'} : tree_ok d -> p < List.length (d_nodes d) -> appended d st p t d' -> tree_ok d'.
Proof. intros T Hp A. exact (tree_ok_adds T Hp (ap_adds A) eq_refl eq_refl eq_refl). Qed.

Lemma add_node_spec d st p t lo sg h d' id : tree_ok d -> p < List.length (d_nodes d) ->
  add_node d st p t lo sg h = IOk (d', id) ->
  id = List.length (d_nodes d) /\ List.length (d_nodes d') = S id /\ tree_ok d' /\
  n_parent (get_node d' id) = Some p /\ n_tok (get_node d' id) = Some t /\ n_header (get_node d' id) = h /\
  n_stage (get_node d' id) = st /\ n_lastop (get_node d' id) = lo /\
  (forall i, i < id -> core (get_node d' i) = core (get_node d i) /\ n_header (get_node d' i) = n_header (get_node d i)).
Proof.
  intros T Hp Ha. destruct (add_node_adds Ha) as (-> & A & _).
  split; [reflexivity|]. split; [exact (adds_length A)|]. split; [exact (tree_ok_adds T Hp A eq_refl eq_refl eq_refl)|].
  rewrite (adds_new A). repeat split; try reflexivity; now apply (adds_old A).
Qed.

Definition ids_ok (d : doc) (l : list nat) : Prop := Forall (fun i => i < List.length (d_nodes d)) l.

Record state_ok (s : istate) : Prop := {
  s_tree : tree_ok (i_doc s);
  s_next : ids_ok (i_doc s) (i_next s);
  s_prev : match i_prev s with Some l => ids_ok (i_doc s) l | None => True end;
  s_prehdr : i_prehdr s < List.length (d_nodes (i_doc s)) }.

Lemma ids_ok_mono d d' l : List.length (d_nodes d) <= List.length (d_nodes d') -> ids_ok d l -> ids_ok d' l.
Proof. intros H. unfold ids_ok. apply Forall_impl. intros a Ha. lia. Qed.

Lemma cell_case_parent {bad row s icol col p t k b} : state_ok s -> cell_case bad row s icol col p t k b -> p < List.length (d_nodes (i_doc s)).
Proof.
  intros [_ _ Hp Hh] [E | prev _ _ Ep Hlt | prev t' _ _ Ep Hlt]; [exact Hh | |]; rewrite Ep in Hp; exact (proj1 (Forall_nth _ _) Hp _ 0 Hlt).
Qed.

Lemma state_ok_begin {s} : state_ok s -> state_ok (begin_row s).
Proof.
  intros [T Hn Hpv Hh]. constructor; cbn [begin_row i_doc i_next i_prev i_prehdr]; try assumption; [constructor|].
  destruct (i_next s); assumption.
Qed.

Lemma state_ok_cell {bad row s icol col p t k b d'} : state_ok s -> cell_case bad row s icol col p t k b ->
  appended (i_doc s) (i_stage s) p t d' -> state_ok (after_cell s d' k).
Proof.
  intros Hs C A. pose proof (cell_case_parent Hs C) as Hp. destruct Hs as [T Hn Hpv Hh].
  pose proof (adds_length (ap_adds A)) as L.
  constructor; cbn [after_cell i_doc i_next i_prev i_prehdr].
  - exact (tree_ok_appended T Hp A).
  - apply Forall_app. split; [eapply ids_ok_mono; [|exact Hn]; lia|]. apply Forall_forall. intros x Hx. apply repeat_spec in Hx. lia.
  - destruct (i_prev s); [eapply ids_ok_mono; [|exact Hpv]; lia | exact I].
  - lia.
Qed.

Lemma state_ok_end {s} bar : state_ok s -> state_ok (end_row s bar).
Proof.
  intros [T Hn Hpv Hh]. pose proof (end_row_nodes s bar) as E.
  assert (M : forall l, ids_ok (i_doc s) l -> ids_ok (i_doc (end_row s bar)) l) by (intros l; apply ids_ok_mono; rewrite E; lia).
  constructor; [exact (tree_ok_nodes _ _ E T) | exact (M _ Hn) | | now rewrite E].
  cbn [end_row i_prev]. destruct (i_next s); [destruct (i_prev s) as [[|x l]|] | destruct (i_prev s)]; try exact I; try (now apply M).
Qed.

Lemma state_ok_meta {s first d'} : state_ok s -> appended (i_doc s) (i_stage s) (i_prehdr s) (meta_tok first) d' -> state_ok (meta_row s d').
Proof.
  intros [T Hn Hpv Hh] A. pose proof (adds_length (ap_adds A)) as L.
  constructor; cbn [meta_row i_doc i_next i_prev i_prehdr]; [exact (tree_ok_appended T Hh A) | constructor | | lia].
  destruct (i_prev s); [eapply ids_ok_mono; [|exact Hpv]; lia | exact I].
Qed.

Lemma state_ok_invariant bad : forall rows s s', state_ok s -> run_rows bad s rows = IOk s' -> state_ok s'.
Proof. exact (run_rows_invariant bad state_ok state_ok (@state_ok_begin) (@state_ok_cell bad) (@state_ok_end) (@state_ok_meta)). Qed.

Lemma init_state_ok : state_ok init_state.
Proof. constructor; [apply tree_ok_empty | constructor | exact I | simpl; lia]. Qed.

Theorem loads_tree_ok bad text d : loads bad text = IOk d -> tree_ok d.
Proof. intros H. destruct (loads_run H) as (s & Hr & <-). exact (s_tree _ (state_ok_invariant _ _ _ _ init_state_ok Hr)). Qed.

Theorem nodes_invariant bad (Q : doc -> Prop) :
  (forall d d', d_nodes d' = d_nodes d -> Q d -> Q d') ->
  (forall d st p t d', Q d -> p < List.length (d_nodes d) -> appended d st p t d' -> Q d') ->
  forall rows s s', state_ok s -> Q (i_doc s) -> run_rows bad s rows = IOk s' -> Q (i_doc s').
Proof.
  intros Qn Qa rows s s' Hs Hq H.
  apply (run_rows_invariant bad (fun s => state_ok s /\ Q (i_doc s)) (fun s => state_ok s /\ Q (i_doc s))) with (rows := rows) (s := s); auto.
  - intros s0 [Hs0 Hq0]. exact (conj (state_ok_begin Hs0) Hq0).
  - intros row s0 icol col p t k b d' [Hs0 Hq0] C A. exact (conj (state_ok_cell Hs0 C A) (Qa _ _ _ _ _ Hq0 (cell_case_parent Hs0 C) A)).
  - intros s0 bar [Hs0 Hq0]. exact (conj (state_ok_end bar Hs0) (Qn _ _ (end_row_nodes s0 bar) Hq0)).
  - intros s0 first d' [Hs0 Hq0] A. exact (conj (state_ok_meta Hs0 A) (Qa _ _ _ _ _ Hq0 (s_prehdr _ Hs0) A)).
Qed.

Definition childless (x : node) : node :=
  {| n_id := n_id x; n_stage := n_stage x; n_tok := n_tok x; n_parent := n_parent x; n_header := n_header x;
     n_lastop := n_lastop x; n_sigs := n_sigs x; n_children := [] |}.

(* every node but the root is, children apart, the node made for its token under its parent, which is an older node.  The
   invariants about headers and signature dictionaries (below, HeaderSelfProofs, SigForceProofs) are this one, read field
   by field. *)
Definition built (d : doc) : Prop :=
  childless (get_node d 0) = root_node /\
  forall i, 0 < i -> i < List.length (d_nodes d) -> exists st p t, p < i /\ childless (get_node d i) = node_of i (get_node d p) st p t.

Lemma built_empty : built empty_doc.
Proof. split; [reflexivity|]. intros i H0 Hi. cbn in Hi. lia. Qed.

Lemma built_nodes d d' : d_nodes d' = d_nodes d -> built d -> built d'.
Proof. unfold built, get_node. now intros ->. Qed.

(* [childless] and [node_of i _ st q u] do not read the children of their argument, so they see an old node as it was *)
Lemma built_appended {d st p t d'} : built d -> p < List.length (d_nodes d) -> appended d st p t d' -> built d'.
Proof.
  intros [B0 B] Hp [A _ _ _]. pose proof (@adds_old _ _ _ _ A) as Old. split.
  - rewrite (Old _ childless); [exact B0 | reflexivity | lia].
  - intros i H0 Hi. destruct (adds_cases A i Hi) as [Hi'| ->].
    + destruct (B i H0 Hi') as (st' & q & u & Hq & E). exists st', q, u. split; [exact Hq|].
      rewrite (Old _ childless), (Old _ (fun x => node_of i x st' q u)); [exact E | reflexivity | lia | reflexivity | exact Hi'].
    + exists st, p, t. split; [exact Hp|]. rewrite (adds_new A), (Old _ (fun x => node_of _ x st p t)); [reflexivity | reflexivity | exact Hp].
Qed.

Lemma built_root d : built d ->
  n_tok (get_node d 0) = None /\ n_header (get_node d 0) = None /\ n_sigs (get_node d 0) = [].
Proof. intros [B0 _]. exact (conj (f_equal n_tok B0) (conj (f_equal n_header B0) (f_equal n_sigs B0))). Qed.

Lemma built_node d i : built d -> 0 < i -> i < List.length (d_nodes d) ->
  exists st p t, p < i /\ n_parent (get_node d i) = Some p /\ n_tok (get_node d i) = Some t /\
    n_header (get_node d i) = n_header (node_of i (get_node d p) st p t) /\
    n_sigs (get_node d i) = n_sigs (node_of i (get_node d p) st p t).
Proof.
  intros [_ B] H0 Hi. destruct (B i H0 Hi) as (st & p & t & Hp & E). exists st, p, t.
  exact (conj Hp (conj (f_equal n_parent E) (conj (f_equal n_tok E) (conj (f_equal n_header E) (f_equal n_sigs E))))).
Qed.

Theorem loads_built bad text d : loads bad text = IOk d -> built d.
Proof.
  intros H. destruct (loads_run H) as (s & Hr & <-).
  exact (nodes_invariant bad built built_nodes (@built_appended) _ _ _ init_state_ok built_empty Hr).
Qed.

Definition is_header_node (d : doc) (h : nat) : Prop := exists e sp, n_tok (get_node d h) = Some (THeader e sp) /\ n_header (get_node d h) = Some h.

Definition hdr_ok (d : doc) : Prop :=
  forall i h, i < List.length (d_nodes d) -> n_header (get_node d i) = Some h ->
    h <= i /\ is_header_node d h /\
    (h = i \/ exists p, n_parent (get_node d i) = Some p /\ n_header (get_node d p) = Some h).

Lemma node_of_header n pn st p t h : n_header (node_of n pn st p t) = Some h ->
  h = n /\ (exists e sp, t = THeader e sp) \/ n_header pn = Some h.
Proof. cbn [node_of n_header]. destruct t; try (destruct (fresh_tok _); [discriminate | now right]). intros [= <-]. left. eauto. Qed.

(* a header is its own; any other node that has a header has its parent's, for which the claim holds already *)
Lemma built_hdr_ok d : built d -> hdr_ok d.
Proof.
  intros B i. induction i as [i IH] using lt_wf_ind. intros h Hi Hh.
  destruct (Nat.eq_dec i 0) as [->|H0]; [destruct (built_root d B) as (_ & E & _); congruence|].
  destruct (built_node d i B ltac:(lia) Hi) as (st & p & t & Hp & Ep & Et & E & _). rewrite Hh in E.
  destruct (node_of_header _ _ _ _ _ _ (eq_sym E)) as [[-> (e & sp & ->)]|Hph].
  - split; [lia|]. split; [|now left]. exists e, sp. split; assumption.
  - destruct (IH p Hp h ltac:(lia) Hph) as (Hle & Hn & _). split; [lia|]. split; [exact Hn|]. right. exists p. split; assumption.
Qed.

Theorem loads_headers bad text d : loads bad text = IOk d -> hdr_ok d.
Proof. intros H. exact (built_hdr_ok d (loads_built bad text d H)). Qed.

Definition same_nodes_hdr (d d' : doc) : Prop :=
  List.length (d_nodes d') = List.length (d_nodes d) /\
  forall i, core (get_node d' i) = core (get_node d i) /\ n_header (get_node d' i) = n_header (get_node d i).
