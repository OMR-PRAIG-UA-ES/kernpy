(* C09 - transposition is exact interval arithmetic.  All octaves in Z.
   [get_chroma] numbers the pitches in base 40, one number per name of the table and octave, and to_transposed adds
   or subtracts the interval in that numbering ([to_transposed_iff]); every law below is that equivalence plus
   arithmetic.  Exactness against the letter/semitone specification rests on the numbering being linear: a spelled
   pitch has the number 2 + 4 * (diatonic height) + (semitone height) ([chroma_spec_pitch]), and the key of a table
   interval is 4 * (diatonic size) + (semitone size) ([interval_keys]). *)
From Coq Require Import List String Bool ZArith Lia.
From KV Require Import Strings PitchGen IntervalGen Pitch PitchSpec.
Import ListNotations.
Open Scope string_scope.
Open Scope Z_scope.

(* Facts about the generated tables are decided row by row by boolean sweeps, one evaluation each: far cheaper to
   check than a case analysis over the rows. *)
Definition opt_eqb {A} (eqb : A -> A -> bool) (a b : option A) : bool :=
  match a, b with Some x, Some y => eqb x y | None, None => true | _, _ => false end.
Lemma opt_eqb_eq {A} (eqb : A -> A -> bool) : (forall x y, eqb x y = true <-> x = y) ->
  forall a b, opt_eqb eqb a b = true <-> a = b.
Proof. intros E [x|] [y|]; cbn; rewrite ?E; split; congruence. Qed.

Lemma forallb2_In {A B} {f : A -> B -> bool} {la lb} :
  forallb (fun a => forallb (f a) lb) la = true -> forall a b, In a la -> In b lb -> f a b = true.
Proof. intros H a b Ha Hb. rewrite forallb_forall in H. exact (proj1 (forallb_forall _ _) (H a Ha) b Hb). Qed.

Lemma chroma_rows : forallb (fun nv => (0 <=? snd nv) && (snd nv <? chroma_base) &&
    opt_eqb String.eqb (chroma_by_value (snd nv)) (Some (fst nv)) &&
    opt_eqb String.eqb (set_name (fst nv)) (Some (fst nv))) chromas = true.
Proof. vm_compute. reflexivity. Qed.

Lemma name_in_table n c :
  assoc_str n chromas = Some c ->
  0 <= c < chroma_base /\ chroma_by_value c = Some n /\ forall o, mk_pitch n o = Some {| ap_name := n; ap_octave := o |}.
Proof.
  intros H. apply assoc_str_In, (proj1 (forallb_forall _ _) chroma_rows) in H. cbn [fst snd] in H.
  apply andb_prop in H as [H Hs]. apply andb_prop in H as [H Hv]. apply (opt_eqb_eq _ String.eqb_eq) in Hv, Hs.
  split; [lia | split; [exact Hv | intros o; unfold mk_pitch; now rewrite Hs]].
Qed.

Definition residues : list Z := map Z.of_nat (seq 0 40).
Lemma residue_rows : forallb (fun v => match chroma_by_value v with
    | Some n => opt_eqb Z.eqb (assoc_str n chromas) (Some v)
    | None => v =? 22 end) residues = true.
Proof. vm_compute. reflexivity. Qed.

(* 22 is the one number below 40 that Chromas leaves out (F++ is 21, G-- is 23) *)
Lemma by_value_spec v : 0 <= v < chroma_base ->
  match chroma_by_value v with Some n => assoc_str n chromas = Some v | None => v = 22 end.
Proof.
  intros H. change chroma_base with 40 in H.
  assert (I : In v residues) by (apply in_map_iff; exists (Z.to_nat v); split; [|apply in_seq]; lia).
  apply (proj1 (forallb_forall _ _) residue_rows) in I.
  destruct (chroma_by_value v); [apply (opt_eqb_eq _ Z.eqb_eq) | apply Z.eqb_eq]; exact I.
Qed.

Lemma residue_22_none : chroma_by_value 22 = None.
Proof. vm_compute. reflexivity. Qed.

Lemma get_chroma_of_name p cp :
  assoc_str (ap_name p) chromas = Some cp -> get_chroma p = Some (chroma_base * ap_octave p + cp).
Proof. unfold get_chroma. now intros ->. Qed.

Lemma sgn_delta d k : match d with Up => k | Down => - k end = sgn d * k.
Proof. destruct d; unfold sgn; lia. Qed.

Lemma pitch_of_chroma c q :
  match chroma_by_value (c mod chroma_base) with Some n => mk_pitch n (c / chroma_base) | None => None end = Some q
  <-> get_chroma q = Some c.
Proof.
  split.
  - intros H. pose proof (by_value_spec _ (Z.mod_pos_bound c chroma_base eq_refl)) as V.
    destruct (chroma_by_value (c mod chroma_base)) as [n|]; [|discriminate].
    destruct (name_in_table _ _ V) as (_ & _ & M). rewrite M in H. injection H as <-.
    unfold get_chroma. cbn [ap_name ap_octave]. rewrite V. f_equal. symmetry. apply Z.div_mod. discriminate.
  - unfold get_chroma. destruct (assoc_str (ap_name q) chromas) as [cq|] eqn:E; [|discriminate].
    intros H. assert (Hc : c = chroma_base * ap_octave q + cq) by congruence.
    destruct (name_in_table _ _ E) as (R & Hv & M).
    rewrite <- (Z.mod_unique_pos c _ _ cq R Hc), <- (Z.div_unique_pos c _ _ cq R Hc), Hv, M. now destruct q.
Qed.

Theorem to_transposed_iff p k d q :
  to_transposed p k d = Some q <-> exists c, get_chroma p = Some c /\ get_chroma q = Some (c + sgn d * k).
Proof.
  unfold to_transposed. rewrite sgn_delta. destruct (get_chroma p) as [c|].
  - rewrite pitch_of_chroma. split; [eauto | now intros (c0 & [= <-] & H)].
  - split; [discriminate | now intros (c & [=] & _)].
Qed.

Theorem transpose_back p k d q :
  to_transposed p k d = Some q -> to_transposed q k (opp_direction d) = Some p.
Proof.
  intros H. apply to_transposed_iff in H as (c & Hp & Hq). apply to_transposed_iff.
  exists (c + sgn d * k). split; [exact Hq|]. rewrite Hp. f_equal. destruct d; cbn [sgn opp_direction]; lia.
Qed.

Theorem unison_identity p d cp :
  assoc_str (ap_name p) chromas = Some cp -> to_transposed p 0 d = Some p.
Proof.
  intros H. apply get_chroma_of_name in H. apply to_transposed_iff.
  eexists. split; [exact H|]. rewrite H. f_equal. lia.
Qed.

Theorem octave_keeps_name p d cp :
  assoc_str (ap_name p) chromas = Some cp ->
  to_transposed p chroma_base d = Some {| ap_name := ap_name p; ap_octave := ap_octave p + sgn d |}.
Proof.
  intros H. apply to_transposed_iff. eexists. split; [exact (get_chroma_of_name _ _ H)|].
  rewrite (get_chroma_of_name _ cp) by exact H. cbn [ap_octave]. f_equal. lia.
Qed.

Theorem transpose_compose p k1 k2 d q r :
  to_transposed p k1 d = Some q -> to_transposed q k2 d = Some r ->
  to_transposed p (k1 + k2) d = Some r.
Proof.
  intros H1 H2. apply to_transposed_iff in H1 as (c & Hp & Hq), H2 as (c' & Hq' & Hr).
  rewrite Hq in Hq'. injection Hq' as <-. apply to_transposed_iff.
  exists c. split; [exact Hp|]. rewrite Hr. f_equal. lia.
Qed.

(* IntervalsByName[n]; a name the table does not have gives 0 (every name used with iv is in the table) *)
Definition iv (n : string) : Z := match interval_by_name n with Some k => k | None => 0 end.

Theorem fourth_then_fifth_is_octave p d q r :
  to_transposed p (iv "P4") d = Some q -> to_transposed q (iv "P5") d = Some r ->
  to_transposed p (iv "octave") d = Some r.
Proof. exact (transpose_compose p (iv "P4") (iv "P5") d q r). Qed.   (* 17 + 23 = 40, by computation *)

Theorem fails_only_on_22 p k d cp :
  assoc_str (ap_name p) chromas = Some cp ->
  (to_transposed p k d = None <-> (chroma_base * ap_octave p + cp + sgn d * k) mod chroma_base = 22).
Proof.
  intros H. unfold to_transposed. rewrite sgn_delta, (get_chroma_of_name _ _ H).
  set (r := _ mod chroma_base).
  pose proof (by_value_spec r (Z.mod_pos_bound _ chroma_base eq_refl)) as V.
  destruct (chroma_by_value r) as [n|] eqn:E.
  - destruct (name_in_table _ _ V) as (_ & _ & M). rewrite M.
    split; [discriminate|]. intros R. rewrite R, residue_22_none in E. discriminate.
  - split; [intros _; exact V | reflexivity].
Qed.

Lemma in_letters l : In l letters_z <-> 0 <= l < 7.
Proof. cbn. lia. Qed.
Lemma in_alts a : In a alts_z <-> -2 <= a <= 2.
Proof. cbn. lia. Qed.

(* in the table a whole tone is 6 units and a semitone 5, so a diatonic step counts 4 and a semitone 1; C is 2 *)
Lemma chroma_cells : forallb (fun l => forallb (fun a =>
    opt_eqb Z.eqb (assoc_str (spec_name l a) chromas) (Some (2 + 4 * l + nat_semi l + a))) alts_z) letters_z = true.
Proof. vm_compute. reflexivity. Qed.

Lemma chroma_spec_pitch l a o : In l letters_z -> In a alts_z ->
  get_chroma (spec_pitch l a o) = Some (2 + 4 * (7 * o + l) + (12 * o + nat_semi l + a)).
Proof.
  intros Hl Ha. rewrite (get_chroma_of_name _ (2 + 4 * l + nat_semi l + a)).
  - cbn [spec_pitch ap_octave]. change chroma_base with 40. f_equal. lia.
  - apply (opt_eqb_eq _ Z.eqb_eq). exact (forallb2_In chroma_cells l a Hl Ha).
Qed.

Theorem transpose_exact l a o dsz ssz d :
  In l letters_z -> In a alts_z ->
  let r := spec_transpose l a o dsz ssz d in
  spellable r = true ->
  to_transposed (spec_pitch l a o) (4 * dsz + ssz) d = Some (spec_pitch (sr_letter r) (sr_alt r) (sr_octave r)).
Proof.
  intros Hl Ha r Hs. apply andb_prop in Hs as [H1 H2]. apply Z.leb_le in H1, H2.
  apply to_transposed_iff. eexists. split; [exact (chroma_spec_pitch l a o Hl Ha)|].
  rewrite chroma_spec_pitch.
  - f_equal. cbn [r spec_transpose sr_letter sr_alt sr_octave]. rewrite <- Z.div_mod by discriminate. lia.
  - apply in_letters, Z.mod_pos_bound. reflexivity.
  - apply in_alts. split; assumption.
Qed.

Lemma interval_keys : forallb (fun iv => match interval_spec (snd iv) with
    | Some (dsz, ssz) => fst iv =? 4 * dsz + ssz
    | None => false end) intervals = true.
Proof. vm_compute. reflexivity. Qed.

Theorem exact_all_octaves :
  forall l a o iv dsz ssz d,
    In l letters_z -> In a alts_z -> In iv intervals ->
    interval_spec (snd iv) = Some (dsz, ssz) ->
    let r := spec_transpose l a o dsz ssz d in
    spellable r = true ->
    to_transposed (spec_pitch l a o) (fst iv) d =
      Some (spec_pitch (sr_letter r) (sr_alt r) (sr_octave r)).
Proof.
  intros l a o iv dsz ssz d Hl Ha Hiv Hspec. apply (proj1 (forallb_forall _ _) interval_keys) in Hiv.
  rewrite Hspec in Hiv. apply Z.eqb_eq in Hiv. rewrite Hiv. now apply transpose_exact.
Qed.

Lemma intervals_all_parse : forallb (fun iv => match interval_spec (snd iv) with Some _ => true | None => false end) intervals = true.
Proof.
  apply forallb_forall. intros iv H. apply (proj1 (forallb_forall _ _) interval_keys) in H.
  destruct (interval_spec (snd iv)); [reflexivity | discriminate].
Qed.

Definition names_distinct : bool :=
  Nat.eqb (List.length (dedup_str (map snd intervals))) (List.length intervals).
Lemma interval_names_distinct : names_distinct = true.
Proof. vm_compute. reflexivity. Qed.

Lemma stable_sort_length {A} (leb : A -> A -> bool) l : List.length (stable_sort leb l) = List.length l.
Proof.
  assert (I : forall x acc, List.length (insert_sorted leb x acc) = S (List.length acc)).
  { intros x acc. induction acc as [|y acc IH]; cbn; [reflexivity|]. destruct (leb y x); cbn; congruence. }
  assert (L : forall l acc, List.length (insertion_sort_acc leb acc l) = (List.length acc + List.length l)%nat).
  { clear l. induction l as [|x l IH]; intros acc; cbn; [lia|]. rewrite IH, I. lia. }
  apply L.
Qed.

Lemma available_intervals_count :
  List.length available_intervals = List.length intervals.
Proof.
  (* the test is first stated under its name: handed [interval_names_distinct] directly, the kernel unfolds Nat.eqb
     before [names_distinct] and evaluates the test a second time *)
  assert (H : names_distinct = true -> List.length (dedup_str (map snd intervals)) = List.length intervals) by apply Nat.eqb_eq.
  exact (eq_trans (stable_sort_length _ _) (H interval_names_distinct)).
Qed.

Example exact_nonvacuous :
  to_transposed (spec_pitch 0 1 5) (iv "P4") Up = Some (spec_pitch 3 1 5) /\
  to_transposed (spec_pitch 0 0 4) (iv "m3") Down = Some (spec_pitch 5 0 3).
Proof. vm_compute. auto. Qed.
