(* The state inventory of the export code (exporter, generic, public, tokenizers) is the one the model knows; see DESIGN.md. *)
From KV Require Import StateGen StateBase.
Lemma state_export_as_modelled : state_export = modelled_state_export.
Proof. reflexivity. Qed.
