(* The exported text is read back as the exported grid: rows_of_file / rows_of_text applied to what the exporter writes
   return, cell for cell, the rows it rendered (rows made only of "", "*" and "." are not written).  Composition of
   render_rows with the line-reader theorem file_grid_literal; used by C01 / C03 / C08 (re-import reads the exported
   cells), C02 (read . write . read, through CleanCellsProofs) and C20 (dump then load). *)
From Coq Require Import List String Bool.
From KV Require Import Strings Token Importer Exporter StringProofs LineReaderProofs.
Import ListNotations.
Open Scope list_scope.

Lemma render_rows_unlines rows :
  render_rows rows = unlines Exporter.nl (map (join Exporter.tab) (filter (fun r => negb (empty_row r)) rows)).
Proof.
  unfold render_rows. induction (filter _ rows) as [|r l IH]; [reflexivity|].
  cbn [map unlines]. now rewrite concat_str_cons, IH, append_assoc.
Qed.

Lemma written_row_not_blank r : negb (empty_row r) = true -> negb (String.eqb (join Exporter.tab r) "") = true.
Proof. intros H. destruct r as [|[|x c] [|c2 r]]; try reflexivity; discriminate H. Qed.

Theorem export_read_back_file rows : (forall r c, In r rows -> In c r -> cell_ok c = true) ->
  rows_of_file (render_rows rows) = filter (fun r => negb (empty_row r)) rows.
Proof.
  intros H. rewrite render_rows_unlines. apply (file_grid_literal Exporter.nl); [left; reflexivity|].
  apply forallb_forall. intros r Hr. apply filter_In in Hr. destruct Hr as [Hin Hk].
  unfold row_ok. apply andb_true_iff. split.
  - apply forallb_forall. intros c. exact (H r c Hin).
  - exact (written_row_not_blank r Hk).
Qed.

Theorem export_read_back_text rows : (forall r c, In r rows -> In c r -> cell_ok c = true) ->
  plain (chars_of_string (render_rows rows)) = true ->
  rows_of_text (render_rows rows) = filter (fun r => negb (empty_row r)) rows.
Proof. intros H Hp. rewrite <- (file_equals_text _ Hp). apply export_read_back_file. exact H. Qed.

Theorem dumps_then_load bad d o rows : export_rows d o = Ok rows ->
  (forall r c, In r rows -> In c r -> cell_ok c = true) ->
  exists text, dumps d o = Ok text /\
    load_file bad text = match run_rows bad init_state (filter (fun r => negb (empty_row r)) rows) with
                         | IOk s => IOk (i_doc s) | IErr e => IErr e | IOut => IOut end.
Proof.
  intros He H. exists (render_rows rows). unfold dumps. rewrite He. split; [reflexivity|].
  unfold load_file. now rewrite (export_read_back_file rows H).
Qed.

Example read_back_example :
  rows_of_file (render_rows [["**kern"; "**text"]; ["*"; "*"]; ["4c"; "la la"]; ["."; "."]; ["*-"; "*-"]])%string
  = [["**kern"; "**text"]; ["4c"; "la la"]; ["*-"; "*-"]]%string.
Proof. vm_compute. reflexivity. Qed.
