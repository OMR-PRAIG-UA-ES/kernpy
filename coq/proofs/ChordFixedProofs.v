(* C01 / C03 for CHORDS: the kern export of the canonical chord token is its canonical text, hence
   export o import o export = export for chords of any number of notes.  A chord is exported note by note: no separator
   holds a blank, so stripping the separators from the joined notes strips each note. *)
From Coq Require Import List String Ascii Arith.
From KV Require Import Strings CatGen Token Tokenizers KernTok StringProofs TokenProofs ScanProofs ExportFixedProofs BekernProofs ChordProofs.
Import ListNotations.
Open Scope list_scope.

Lemma replace_nil p0 pat' : replace (String p0 pat') "" "" = ""%string.
Proof. reflexivity. Qed.

Lemma drop_length_le n : forall s, String.length (drop n s) <= String.length s.
Proof. intros s. rewrite length_drop. apply Nat.le_sub_l. Qed.

Lemma strip_separators_join parts : strip_separators (join " " parts) = join " " (map strip_separators parts).
Proof.
  unfold strip_separators, token_separator, decoration_separator.
  rewrite !(replace_join_barrier _ _ _ " "%char) by reflexivity. now rewrite map_map.
Qed.

Theorem kern_tokenize_chord cats enc notes (g : noterest -> string) :
  (forall n, In n notes -> kern_tokenize cats (TNoteRest n) = Ok (g n)) ->
  kern_tokenize cats (TChord enc notes) = Ok (join " " (map g notes)).
Proof.
  unfold kern_tokenize. rewrite ekern_chord. cbn [map_res]. intros H. rewrite strip_separators_join, map_map. do 2 f_equal.
  apply map_ext_in. intros n Hn. apply Ok_inj. now rewrite <- (H n Hn), ekern_note.
Qed.

Lemma str_print_chord : forall notes, str (print_chord notes) = join " " (map (fun n => str (print_note n)) notes).
Proof.
  induction notes as [|n [|m notes] IH]; [reflexivity | reflexivity |]. cbn [print_chord]. rewrite str_app. cbn [map] in *.
  now rewrite join_cons, <- IH.
Qed.

Theorem kern_export_canonical_chord D notes : chord_ok D notes -> Forall canonical_order notes ->
  kern_tokenize all_cats (TChord (str (print_chord notes)) (map (chord_note D) notes)) = Ok (str (print_chord notes)).
Proof.
  intros Hok Hcan. rewrite (kern_tokenize_chord _ _ _ nr_enc), map_map, str_print_chord; [reflexivity|].
  intros nr Hin. apply in_map_iff in Hin as [n [<- Hn]]. unfold chord_ok in Hok. rewrite Forall_forall in Hok, Hcan.
  destruct (Hok n Hn) as [Hn_ok [<- _]]. exact (kern_export_canonical_note n Hn_ok (Hcan n Hn)).
Qed.

Theorem chord_export_fixed_point D notes : 2 <= List.length notes -> chord_ok D notes -> Forall canonical_order notes ->
  match kern_recognise (str (print_chord notes)) with
  | KTok t => kern_tokenize all_cats t = Ok (str (print_chord notes))
  | KOut => False
  end.
Proof. intros Hlen Hok Hcan. rewrite (recognise_print_chord D notes Hlen Hok). now apply kern_export_canonical_chord. Qed.

Example chord_fixed_point_example :
  let mk p o := {| nt_dur := Some {| cd_num := ["4"%char]; cd_frac := None; cd_dots := 0; cd_grace := "" |}; nt_pitch := p; nt_oct := o;
                   nt_core := []; nt_disp := []; nt_decos := chars_of_string ";L" |} in
  let notes := [mk "c"%char 0; mk "e"%char 1; mk "g"%char 0] in
  chord_ok (chars_of_string ";L") notes /\ Forall canonical_order notes /\
  str (print_chord notes) = "4c;L 4ee;L 4g;L"%string /\
  match kern_recognise "4c;L 4ee;L 4g;L" with KTok t => kern_tokenize all_cats t | KOut => Err "out" end = Ok "4c;L 4ee;L 4g;L"%string.
Proof.
  intros mk notes.
  assert (H : forall p o, is_pitch_letter p = true ->
              note_ok (mk p o) /\ nt_decos (mk p o) = chars_of_string ";L" /\ exists d, nt_dur (mk p o) = Some d).
  { intros p o Hp. split; [|split; [reflexivity | eexists; reflexivity]]. unfold note_ok, dur_ok; cbn.
    repeat split; try reflexivity; try assumption; try discriminate. repeat constructor; cbn; intuition discriminate. }
  split; [|split; [|split; [reflexivity | vm_compute; reflexivity]]].
  - unfold chord_ok, notes. repeat (apply Forall_cons; [apply H; reflexivity|]). apply Forall_nil.
  - repeat constructor.
Qed.
