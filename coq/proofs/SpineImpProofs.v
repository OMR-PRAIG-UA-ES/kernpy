(* C18, over the regenerated importer tables: under every claimed spine type (all but **kern, **root and **mens) a non-empty
   cell always imports: as the token a **kern spine would hold when that token belongs to the structure all spine types share;
   as a token with the verbatim text and the type's own category when it neither does nor falls under that category, or when
   there is none.  For C12: one KernSpineImporter over a history of cells, where the outcome for a cell does not depend on the
   cells before it.  [import_kind_outcome] and [kern_header_kind] serve the proofs about Importer.import_cell. *)
From Coq Require Import List String Bool Arith.
From KV Require Import Strings CatGen Cat CatProofs SpineImpGen SpineImp.
Import ListNotations.
Open Scope string_scope.

(* what the table must say about a lossless wrapper for a header whose own category is [own] *)
Definition kind_ok (own : cat) (k : imp_kind) : bool :=
  match k with
  | KWrap fe acc neg fr =>
    neg && cat_beq fe own && cat_beq fr own
    && forallb (fun c => mem c acc) shared_cats
    && forallb (fun c => mem c shared_cats || cat_beq c own) acc
  | _ => false
  end.

Lemma kind_ok_spec own k : kind_ok own k = true ->
  exists acc, k = KWrap own acc true own /\ incl shared_cats acc /\ (forall c, In c acc -> In c shared_cats \/ c = own).
Proof.
  destruct k as [f| | |c|fe acc neg fr]; try discriminate. cbn [kind_ok]. intros H.
  apply andb_true_iff in H as [H H5]. apply andb_true_iff in H as [H H4]. apply andb_true_iff in H as [H H3].
  apply andb_true_iff in H as [-> H2]. apply cat_beq_true in H2, H3. subst fe fr. exists acc. split; [reflexivity|].
  rewrite forallb_forall in H4, H5. split.
  - intros c Hc. apply mem_In, H4, Hc.
  - intros c Hc. specialize (H5 c Hc). rewrite orb_true_iff, mem_In, cat_beq_true in H5. exact H5.
Qed.

Lemma dispatch_rows_ok :
  forallb (fun r => implb (claimed (fst r)) (kind_ok (own_cat (fst r)) (kind_of_header (fst r)))) importer_dispatch = true.
Proof. vm_compute. reflexivity. Qed.

(* every claimed header - known or not - resolves to such a wrapper: a header is a key of the dispatch table, whose rows
   are checked above against the source tables, or it is unknown to [own_cat] as well and gets the default importer *)
Lemma claimed_kind_ok h : claimed h = true -> kind_ok (own_cat h) (kind_of_header h) = true.
Proof.
  intros Hc. destruct (assoc_str h importer_dispatch) as [cls|] eqn:E.
  - apply assoc_str_In, (proj1 (forallb_forall _ _) dispatch_rows_ok) in E. cbn [fst] in E. rewrite Hc in E. cbn [implb] in E. exact E.
  - unfold kind_of_header, create_importer, own_cat. rewrite E, !(assoc_str_None _ _ _ E) by reflexivity.
    vm_compute. reflexivity.
Qed.

Section Facts.
  Variable T : Type.
  Variable tcat : T -> cat.
  Variable recog : string -> option T.
  Notation import_token := (import_token T tcat recog).
  Notation import_kind := (import_kind T tcat recog).

  Definition shared (c : cat) : Prop := exists p, In p shared_cats /\ desc p c.

  Lemma import_kind_outcome k s :
    match import_kind k s with RKept t => recog s = Some t | RSimple txt _ => txt = s | RErr _ => True end.
  Proof.
    destruct k as [f| | |c|fe acc neg fr]; simpl; try exact I; destruct (String.eqb s ""); try exact I;
      destruct (recog s) as [t|]; try reflexivity. destruct (if neg then _ else _); reflexivity.
  Qed.

  Lemma accepted_by_spec acc c : accepted_by acc c = true <-> exists p, In p acc /\ desc p c.
  Proof.
    unfold accepted_by. rewrite existsb_exists. split; intros [p [H1 H2]]; exists p; split; auto; now apply is_child_spec.
  Qed.

  Lemma import_claimed h s : claimed h = true -> s <> "" ->
    exists acc, incl shared_cats acc /\ (forall c, In c acc -> In c shared_cats \/ c = own_cat h) /\
      import_token h s = match recog s with
                         | Some t => if accepted_by acc (tcat t) then RKept t else RSimple s (own_cat h)
                         | None => RSimple s (own_cat h)
                         end.
  Proof.
    intros Hc Hs. destruct (kind_ok_spec _ _ (claimed_kind_ok h Hc)) as [acc [Hk [Hin Hsub]]].
    exists acc. split; [exact Hin|]. split; [exact Hsub|].
    unfold SpineImp.import_token. rewrite Hk. simpl. apply String.eqb_neq in Hs. rewrite Hs.
    destruct (recog s) as [t|]; [destruct (accepted_by acc (tcat t))|]; reflexivity.
  Qed.

  Theorem import_total h s : claimed h = true -> s <> "" -> forall e, import_token h s <> RErr e.
  Proof.
    intros Hc Hs e. destruct (import_claimed h s Hc Hs) as [acc [_ [_ ->]]].
    destruct (recog s) as [t|]; [destruct (accepted_by acc (tcat t))|]; discriminate.
  Qed.

  (* shared structure is recognised exactly as in a **kern spine: the very same token *)
  Theorem import_shared h s t : claimed h = true -> s <> "" -> recog s = Some t -> shared (tcat t) ->
    import_token h s = RKept t.
  Proof.
    intros Hc Hs Hr [p [Hp Hd]]. destruct (import_claimed h s Hc Hs) as [acc [Hin [_ ->]]]. rewrite Hr.
    rewrite (proj2 (accepted_by_spec acc (tcat t))); [reflexivity|]. exists p. split; [apply Hin, Hp | exact Hd].
  Qed.

  (* everything else becomes a token with the verbatim text and the type's own category *)
  Theorem import_other h s : claimed h = true -> s <> "" ->
    (recog s = None \/ exists t, recog s = Some t /\ ~ shared (tcat t) /\ ~ desc (own_cat h) (tcat t)) ->
    import_token h s = RSimple s (own_cat h).
  Proof.
    intros Hc Hs Hr. destruct (import_claimed h s Hc Hs) as [acc [_ [Hsub ->]]].
    destruct Hr as [-> | [t [-> [Hn1 Hn2]]]]; [reflexivity|].
    destruct (accepted_by acc (tcat t)) eqn:E; [|reflexivity]. apply accepted_by_spec in E. destruct E as [p [Hp Hd]].
    destruct (Hsub p Hp) as [Hs' | ->]; [destruct Hn1; exists p; auto | contradiction].
  Qed.

  (* hence the outcome is a function of the kern outcome alone, identical under every claimed header
     up to the own category: barlines are detected identically *)
  Theorem import_same_structure h1 h2 s t : claimed h1 = true -> claimed h2 = true -> s <> "" ->
    recog s = Some t -> shared (tcat t) -> import_token h1 s = import_token h2 s.
  Proof. intros. rewrite (import_shared h1 s t), (import_shared h2 s t); auto. Qed.
End Facts.

Example claimed_examples : claimed "**text" = true /\ claimed "**silbe" = true /\ claimed "**kern" = false.
Proof. vm_compute. repeat split. Qed.

Lemma kern_header_kind : kind_of_header "**kern" = KKern true.
Proof. vm_compute. reflexivity. Qed.

Section History.
  Variable T : Type.
  Variable recog : string -> option T * nat.

  Lemma kern_import_fresh st s : fst (kern_import T recog true st s) = fst (kern_import T recog true 0 s).
  Proof. unfold kern_import. destruct (String.eqb s ""); [reflexivity|]. destruct (recog s) as [p e]. reflexivity. Qed.

  Theorem history_independent : forall h st,
    run_history T recog true st h = map (fun s => fst (kern_import T recog true 0 s)) h.
  Proof.
    induction h as [|s h IH]; intros st; simpl; [reflexivity|].
    destruct (kern_import T recog true st s) as [o st'] eqn:E. rewrite IH. f_equal.
    rewrite <- (kern_import_fresh st s), E. reflexivity.
  Qed.

  Corollary outcome_of_cell_fixed h1 h2 st1 st2 s :
    nth (List.length h1) (run_history T recog true st1 (h1 ++ [s])) (RErr "") =
    nth (List.length h2) (run_history T recog true st2 (h2 ++ [s])) (RErr "").
  Proof.
    rewrite !history_independent, !map_app. set (f := fun s0 => fst (kern_import T recog true 0 s0)).
    rewrite <- (map_length f h1), <- (map_length f h2). simpl. rewrite !nth_middle. reflexivity.
  Qed.

  Theorem outcome_is_recogniser s t : s <> "" -> recog s = (Some t, 0) -> forall st, fst (kern_import T recog true st s) = RKept t.
  Proof.
    intros Hs Hr st. unfold kern_import. apply String.eqb_neq in Hs. rewrite Hs, Hr. reflexivity.
  Qed.
  Theorem malformed_raises s : (fst (recog s) = None \/ 0 < snd (recog s)) -> forall st, exists e, fst (kern_import T recog true st s) = RErr e.
  Proof.
    intros H st. unfold kern_import. destruct (String.eqb s ""); [eexists; reflexivity|].
    destruct (recog s) as [p e]. simpl in H. destruct p as [t|]; [|eexists; reflexivity].
    destruct H as [H|H]; [discriminate|]. apply Nat.ltb_lt in H. simpl. rewrite H. eexists; reflexivity.
  Qed.
End History.

(* the importer in the source tree does replace its listener at every call (flag regenerated from the source) *)
Lemma kern_listener_is_fresh : kern_fresh_flag = Some true.
Proof. vm_compute. reflexivity. Qed.

(* with a listener kept for the importer's lifetime the property fails: witness history *)
Definition demo_recog (s : string) : option nat * nat := if String.eqb s "4zz" then (Some 0, 1) else (Some 1, 0).
Lemma sticky_listener_refuted :
  run_history nat demo_recog false 0 ["4zz"; "4c"] <> map (fun s => fst (kern_import nat demo_recog false 0 s)) ["4zz"; "4c"].
Proof. vm_compute. discriminate. Qed.
