(* The state inventory of the tokens code (tokens.py) is the one the model knows; see DESIGN.md. *)
From KV Require Import StateGen StateBase.
Lemma state_tokens_as_modelled : state_tokens = modelled_state_tokens.
Proof. reflexivity. Qed.
