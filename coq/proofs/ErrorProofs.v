(* C12 at document level: the error list of an imported document is exactly the list of its ErrorToken nodes, in
   creation order and without repetition; each ErrorToken carries the number of its line, blank lines not counted (that it
   carries the text of its cell is GridTokensProofs.error_iff_rejected). *)
From Coq Require Import List Lia.
From KV Require Import Token Importer ImporterProofs.
Import ListNotations.
Open Scope list_scope.

Definition tok_not_error (t : token) : bool := match t with TError _ _ => false | _ => true end.

Lemma import_cell_not_error bad h s t : import_cell bad h s = RTok t -> tok_not_error t = true.
Proof. intros H. apply import_cell_ok in H. now destruct t. Qed.

Definition is_error_tok (t : option token) : bool := match t with Some (TError _ _) => true | _ => false end.
Definition error_nodes (d : doc) : list nat :=
  filter (fun i => is_error_tok (n_tok (get_node d i))) (seq 0 (List.length (d_nodes d))).

Record err_ok (d : doc) : Prop := {
  e_list : d_errors d = error_nodes d;
  e_line : forall i e l, n_tok (get_node d i) = Some (TError e l) -> l = n_stage (get_node d i) }.

Lemma err_ok_empty : err_ok empty_doc.
Proof. split; [reflexivity|]. intros [|[|i]] e l H; discriminate. Qed.

Lemma err_ok_same d d' : d_nodes d' = d_nodes d -> d_errors d' = d_errors d -> err_ok d -> err_ok d'.
Proof. intros En Ee [E1 E2]. split; [rewrite Ee, E1|]; unfold error_nodes, get_node in *; now rewrite En. Qed.

Lemma err_ok_appended {d st p t d'} : err_ok d -> appended d st p t d' -> (forall e l, t = TError e l -> l = st) -> err_ok d'.
Proof.
  intros [E1 E2] [A _ _ Er] Hline. set (n := List.length (d_nodes d)) in *.
  pose proof (adds_new A) as New. fold n in New. pose proof (adds_length A) as L. fold n in L. split.
  - rewrite Er, E1. unfold error_nodes. rewrite L, seq_S, filter_app. fold n. cbn [plus filter]. rewrite New. cbn [new_node node_of n_tok]. f_equal.
    + apply filter_ext_in. intros i Hi. apply in_seq in Hi. now rewrite (adds_old A n_tok) by (easy || lia).
    + now destruct t.
  - intros i e l Ht. destruct (adds_cases A i (tok_in_range Ht)) as [Hi'| ->]; fold n in Ht |- *.
    + rewrite (adds_old A n_tok) in Ht by easy. rewrite (adds_old A n_stage) by easy. exact (E2 i e l Ht).
    + rewrite New in Ht |- *. injection Ht as ->. exact (Hline e l eq_refl).
Qed.

(* between two lines the line counter is one ahead of the stage counter; while a line is read they agree *)
Definition err_inv (ahead : nat) (s : istate) : Prop := err_ok (i_doc s) /\ i_row s = ahead + i_stage s.

Theorem run_rows_err bad : forall rows s s', err_inv 1 s -> run_rows bad s rows = IOk s' -> err_inv 1 s'.
Proof.
  apply run_rows_invariant with (Pin := err_inv 0).
  - intros s [Hd Hr]. split; [exact Hd | exact Hr].
  - intros row s icol col p t k b d' [Hd Hr] C A. split; [|exact Hr]. apply (err_ok_appended Hd A).
    destruct C as [_ | prev _ _ _ _ | prev t' _ _ _ _ Ct]; try discriminate.
    (* an ErrorToken made from a cell carries the number of the line being read *)
    intros e l ->. destruct (cell_token_shape Ct) as [[= _ ->]|]; [exact Hr | discriminate].
  - intros s bar [Hd Hr]. split; [|cbn [end_row i_row i_stage]; now rewrite Hr].
    apply (err_ok_same (i_doc s)); [apply end_row_nodes | now destruct bar | exact Hd].
  - intros s first d' [Hd Hr] A. split; [|cbn [meta_row i_row i_stage]; now rewrite Hr]. apply (err_ok_appended Hd A). discriminate.
Qed.

Theorem loads_errors bad text d : loads bad text = IOk d -> err_ok d.
Proof.
  intros H. destruct (loads_run H) as (s & Hr & <-). exact (proj1 (run_rows_err bad _ init_state _ (conj err_ok_empty eq_refl) Hr)).
Qed.

Theorem errors_reported_once bad text d : loads bad text = IOk d ->
  NoDup (d_errors d) /\
  (forall id, In id (d_errors d) <-> id < List.length (d_nodes d) /\ exists e l, n_tok (get_node d id) = Some (TError e l)) /\
  (forall id e l, n_tok (get_node d id) = Some (TError e l) -> id < List.length (d_nodes d) -> l = n_stage (get_node d id)).
Proof.
  intros H. destruct (loads_errors bad text d H) as [E1 E2]. split; [|split].
  - rewrite E1. unfold error_nodes. apply NoDup_filter, seq_NoDup.
  - intros id. rewrite E1. unfold error_nodes. rewrite filter_In, in_seq. split.
    + intros [[_ Hlt] Ht]. split; [exact Hlt|]. destruct (n_tok (get_node d id)) as [[]|]; try discriminate. eauto.
    + intros [Hlt [e [l Ht]]]. split; [lia|]. rewrite Ht. reflexivity.
  - intros id e l Ht _. exact (E2 id e l Ht).
Qed.

Lemma error_token_verbatim keep conv e l : export_token keep conv (TError e l) = Ok e.
Proof. reflexivity. Qed.
