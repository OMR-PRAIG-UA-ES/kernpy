(* C02: every cell the line readers hand to the importer is free of tab, LF and CR - for every byte string.  Hence a
   grid that was read can be written verbatim and read again: read . write . read = read, minus the rows the writer
   drops. *)
From Coq Require Import List String Bool.
From KV Require Import Importer Exporter StringProofs LineReaderProofs ReadBackProofs.
Import ListNotations.
Open Scope list_scope.

Lemma row_of_line_clean line : line_ok line = true -> forall c, In c (row_of_line line) -> cell_ok c = true.
Proof.
  intros H. unfold line_ok in H. apply andb_true_iff in H. destruct H as [H1 H2].
  unfold row_of_line. destruct line as [|a line]; [contradiction|]. set (l := String a line) in *. intros c Hc.
  pose proof (split_char_avoids_sep tab l) as A.
  pose proof (split_char_avoids tab lf l H1) as B.
  pose proof (split_char_avoids tab cr l H2) as C.
  rewrite forallb_forall in A, B, C. unfold cell_ok. now rewrite (A c Hc), (B c Hc), (C c Hc).
Qed.

Lemma rows_clean lines : forallb line_ok lines = true ->
  forall row c, In row (map row_of_line lines) -> In c row -> cell_ok c = true.
Proof.
  intros F row c Hr. apply in_map_iff in Hr. destruct Hr as [line [<- Hl]]. rewrite forallb_forall in F.
  apply row_of_line_clean, F, Hl.
Qed.

Theorem file_cells_clean s : forall row c, In row (rows_of_file s) -> In c row -> cell_ok c = true.
Proof. apply rows_clean, filelines_aux_clean. reflexivity. Qed.

Theorem text_cells_clean s : forall row c, In row (rows_of_text s) -> In c row -> cell_ok c = true.
Proof. apply rows_clean, splitlines_aux_clean. reflexivity. Qed.

Theorem read_write_read s :
  rows_of_file (render_rows (rows_of_file s)) = filter (fun r => negb (empty_row r)) (rows_of_file s) /\
  rows_of_file (render_rows (rows_of_text s)) = filter (fun r => negb (empty_row r)) (rows_of_text s).
Proof. split; apply export_read_back_file; [apply file_cells_clean | apply text_cells_clean]. Qed.
