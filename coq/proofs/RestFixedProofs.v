(* C01 / C03 for a single REST: the kern export of the canonical rest token is its canonical text, hence
   export o import o export = export. *)
From Coq Require Import List String Ascii Sorted.
From KV Require Import Strings CatGen Token Tokenizers KernTok StringProofs CanonProofs ScanProofs ExportFixedProofs RestProofs.
Import ListNotations.
Open Scope list_scope.

Definition rest_canonical_order (r : crest) : Prop :=
  StronglySorted (fun a b => sub_full_leb a b = true) (map deco_of (rs_decos r)).

Lemma rest_texts r :
  (String.concat "" (map st_enc (rest_pd r)) ++ String.concat "" (map st_enc (map deco_of (rs_decos r))))%string = str (print_rest r).
Proof.
  unfold rest_pd, print_rest. rewrite map_app, concat_str_app, mk_durs_enc, concat_single_chars, str_app, concat_dur_tokens. apply append_assoc.
Qed.

Lemma print_rest_plain r : rest_ok r -> forallb plainc (print_rest r) = true.
Proof.
  intros [Hdur [Hde _]]. unfold print_rest. rewrite forallb_app, (print_dur_plain _ Hdur). cbn [forallb].
  now rewrite (forallb_plain is_rest_deco _ eq_refl eq_refl Hde).
Qed.

Theorem kern_export_canonical_rest r : rest_ok r -> rest_canonical_order r ->
  kern_tokenize all_cats (rest_token r) = Ok (str (print_rest r)).
Proof.
  intros Hok Hs. apply kern_export_sorted; [apply mk_durs_sorted; repeat constructor | exact Hs | apply rest_texts |
    now apply print_rest_plain | exact (starts_nonempty (print_rest_head r Hok))].
Qed.

Example rest_canonical_example :
  let r := {| rs_dur := {| cd_num := ["2"%char]; cd_frac := None; cd_dots := 1; cd_grace := "" |}; rs_decos := chars_of_string "();" |} in
  rest_ok r /\ rest_canonical_order r.
Proof. split; [split; [|split] | unfold rest_canonical_order; cbn; repeat constructor].
  - repeat split; try reflexivity; discriminate.
  - reflexivity.
  - repeat constructor; cbn; intuition discriminate.
Qed.
