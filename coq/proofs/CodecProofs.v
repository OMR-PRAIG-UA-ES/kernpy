(* C16 - the Humdrum pitch spelling codec: lossless for every octave, and export is pure.
   A spelling is a run of one letter followed by a run of one accidental sign, so the codec is followed through
   [filter_string] / [map_string] / [remove_char] on runs; what depends on the letter or on the name setter is a
   finite fact per letter (or per letter and alteration) and is evaluated. *)
From Coq Require Import List String Ascii Bool ZArith Lia.
From KV Require Import Strings PitchGen Pitch PitchSpec StringProofs TransposeProofs.
Import ListNotations.
Open Scope string_scope.
Open Scope Z_scope.

Lemma length_repeat_char c n : String.length (repeat_char c n) = n.
Proof. induction n as [|n IH]; cbn; congruence. Qed.

Lemma repeat_string_single c n : repeat_string (String c "") n = repeat_char c n.
Proof. induction n as [|n IH]; cbn; congruence. Qed.

Lemma filter_string_repeat p c n :
  filter_string p (repeat_char c n) = if p c then repeat_char c n else "".
Proof. unfold filter_string. destruct (p c) eqn:E; induction n as [|n IH]; cbn; rewrite ?E; cbn; congruence. Qed.

Lemma map_string_repeat f c n : map_string f (repeat_char c n) = repeat_char (f c) n.
Proof. unfold map_string. induction n as [|n IH]; cbn; congruence. Qed.

Lemma remove_char_repeat c x n :
  remove_char c (repeat_char x n) = if Ascii.eqb x c then "" else repeat_char x n.
Proof. unfold remove_char. rewrite filter_string_repeat. destruct (Ascii.eqb x c); reflexivity. Qed.

Lemma filter_string_app p a b : filter_string p (a ++ b) = filter_string p a ++ filter_string p b.
Proof. unfold filter_string. rewrite chars_of_string_app, filter_app, string_of_chars_app. reflexivity. Qed.

Lemma map_string_app f a b : map_string f (a ++ b) = map_string f a ++ map_string f b.
Proof. unfold map_string. rewrite chars_of_string_app, map_app, string_of_chars_app. reflexivity. Qed.

Lemma remove_char_app c a b : remove_char c (a ++ b) = remove_char c a ++ remove_char c b.
Proof. apply filter_string_app. Qed.

Lemma string_length_app (a b : string) : String.length (a ++ b) = (String.length a + String.length b)%nat.
Proof. exact (length_append a b). Qed.

Lemma lower_single c : lower (String c "") = String (to_lower c) "".
Proof. reflexivity. Qed.
Lemma upper_single c : upper (String c "") = String (to_upper c) "".
Proof. reflexivity. Qed.

Lemma map_filter_run f p c n : p c = true -> map_string f (filter_string p (repeat_char c n)) = repeat_char (f c) n.
Proof. intros H. now rewrite filter_string_repeat, H, map_string_repeat. Qed.

Lemma strip_run c1 c2 x n : Ascii.eqb x c1 || Ascii.eqb x c2 = true ->
  remove_char c2 (remove_char c1 (repeat_char x n)) = "".
Proof.
  intros H. rewrite remove_char_repeat. destruct (Ascii.eqb x c1); [reflexivity|].
  cbn [orb] in H. now rewrite remove_char_repeat, H.
Qed.

Lemma alt_run a : exists n,
  alt_string a = repeat_char "+" n /\ kern_acc a = repeat_char "#" n \/
  alt_string a = repeat_char "-" n /\ kern_acc a = repeat_char "-" n.
Proof. unfold alt_string, kern_acc. destruct (a >=? 0); eexists; [left | right]; split; reflexivity. Qed.

Lemma acc_of_kern a :
  map_string (fun c => if Ascii.eqb c "#" then "+"%char else c) (filter_string is_sharp_flat (kern_acc a)) = alt_string a.
Proof. destruct (alt_run a) as [n [[-> ->]|[-> ->]]]; now rewrite map_filter_run. Qed.

Lemma acc_of_name a :
  map_string (fun c => if Ascii.eqb c "+" then "#"%char else c) (filter_string is_pm (alt_string a)) = kern_acc a.
Proof. destruct (alt_run a) as [n [[-> ->]|[-> ->]]]; now rewrite map_filter_run. Qed.

Lemma strip_kern_acc a : remove_char "-" (remove_char "#" (kern_acc a)) = "".
Proof. destruct (alt_run a) as [n [[_ ->]|[_ ->]]]; now apply strip_run. Qed.

Lemma strip_alt a : remove_char "-" (remove_char "+" (alt_string a)) = "".
Proof. destruct (alt_run a) as [n [[-> _]|[-> _]]]; now apply strip_run. Qed.

(* the match is accidentals_output of export_pitch: the first accidental, as many times as there are *)
Lemma kern_acc_again a :
  match kern_acc a with EmptyString => "" | String a0 _ => repeat_char a0 (String.length (kern_acc a)) end = kern_acc a.
Proof.
  destruct (alt_run a) as [n [[_ ->]|[_ ->]]]; destruct n; cbn; now rewrite ?length_repeat_char.
Qed.

(* the table of the 7 letters: a fact about each of them is checked letter by letter.  It is applied to the statement
   as written ([pattern]), so that what a [let] names there is evaluated once for all the facts about it.  (Tables of
   dozens of rows are swept by a boolean function instead, as in TransposeProofs: that is far cheaper to check.) *)
Lemma letters_ind (P : Z -> Prop) : P 0 -> P 1 -> P 2 -> P 3 -> P 4 -> P 5 -> P 6 -> forall l, In l letters_z -> P l.
Proof. intros H0 H1 H2 H3 H4 H5 H6 l H. repeat (destruct H as [<-|H]; [assumption|]). destruct H. Qed.

Lemma letter_char_props l : In l letters_z ->
  let c := letter_char l in let C := to_upper c in
  is_lower c = true /\ is_lower C = false /\ is_upper C = true /\
  is_sharp_flat c = false /\ is_sharp_flat C = false /\ to_lower c = c /\ to_lower C = c.
Proof. intros H. pattern l. revert l H. apply letters_ind; vm_compute; repeat split. Qed.

Lemma letter_name_props l : In l letters_z ->
  let n := letter_name l in
  filter_string is_pm n = "" /\ remove_char "-" (remove_char "+" n) = n /\
  lower n = String (letter_char l) "" /\ upper n = String (to_upper (letter_char l)) "" /\ set_name n = Some n.
Proof. intros H. pattern l. revert l H. apply letters_ind; vm_compute; repeat split. Qed.

Lemma strip_spec_name l a : In l letters_z -> remove_char "-" (remove_char "+" (spec_name l a)) = letter_name l.
Proof.
  intros Hl. destruct (letter_name_props l Hl) as (_ & N & _).
  unfold spec_name. now rewrite !remove_char_app, N, strip_alt, append_nil_r.
Qed.

Lemma accidentals_spec l a o : In l letters_z -> accidentals (spec_pitch l a o) = kern_acc a.
Proof.
  intros Hl. destruct (letter_name_props l Hl) as (F & _).
  unfold accidentals, spec_pitch, spec_name; cbn [ap_name]. rewrite filter_string_app, F. apply acc_of_name.
Qed.

(* the name _parse_pitch hands to AgnosticPitch: the letter in lower case, then the accidentals as + or - *)
Definition lower_name (l a : Z) : string := String (letter_char l) "" ++ alt_string a.
Lemma setname_cells : forallb (fun l => forallb (fun a =>
    opt_eqb String.eqb (set_name (lower_name l a)) (Some (spec_name l a)) &&
    opt_eqb String.eqb (set_name (spec_name l a)) (Some (spec_name l a))) alts7) letters_z = true.
Proof. vm_compute. reflexivity. Qed.

Lemma setname_cell_spec l a : In l letters_z -> In a alts7 ->
  set_name (lower_name l a) = Some (spec_name l a) /\ set_name (spec_name l a) = Some (spec_name l a).
Proof.
  intros Hl Ha. pose proof (forallb2_In setname_cells l a Hl Ha) as H.
  apply andb_prop in H as [H1 H2]. split; apply (opt_eqb_eq _ String.eqb_eq); assumption.
Qed.

Lemma parse_pitch_run c n a : is_sharp_flat c = false ->
  parse_pitch (repeat_char c (S n) ++ kern_acc a) =
  let name := String (to_lower c) (alt_string a) in
  if is_lower c then Some (name, imp_c4_octave + Z.of_nat n)
  else if is_upper c then Some (name, imp_c3_octave - Z.of_nat n) else None.
Proof.
  intros Hc. unfold parse_pitch.
  rewrite filter_string_app, filter_string_repeat, Hc. cbn [append]. rewrite acc_of_kern.
  apply orb_false_elim in Hc as [H1 H2].
  rewrite !remove_char_app, strip_kern_acc, append_nil_r, !remove_char_repeat, H1, remove_char_repeat, H2.
  cbn [repeat_char String.length append]. rewrite length_repeat_char.
  replace (Z.of_nat (S n) - 1) with (Z.of_nat n) by lia. reflexivity.
Qed.

Theorem parse_spell l a o :
  In l letters_z -> In a alts7 ->
  import_pitch (spell l a o) = Some (spec_pitch l a o).
Proof.
  intros Hl Ha.
  destruct (letter_char_props l Hl) as (Lc & LC & UC & SFc & SFC & TLc & TLC).
  destruct (setname_cell_spec l a Hl Ha) as [S1 _]. unfold lower_name in S1. cbn [append] in S1.
  unfold import_pitch, mk_pitch, spell, spec_pitch.
  destruct (o >=? 4) eqn:Eo.
  - destruct (Z.to_nat (o - 4 + 1)) as [|n] eqn:En; [lia|].
    rewrite parse_pitch_run by exact SFc. cbv zeta. rewrite Lc, TLc, S1. do 2 f_equal. change imp_c4_octave with 4. lia.
  - destruct (Z.to_nat (3 - o + 1)) as [|n] eqn:En; [lia|].
    rewrite parse_pitch_run by exact SFC. cbv zeta. rewrite LC, UC, TLC, S1. do 2 f_equal. change imp_c3_octave with 3. lia.
Qed.

Theorem export_spell l a o : In l letters_z -> fst (export_pitch (spec_pitch l a o)) = spell l a o.
Proof.
  intros Hl. destruct (letter_name_props l Hl) as (_ & _ & L & U & _).
  unfold export_pitch. fold (accidentals (spec_pitch l a o)). rewrite (accidentals_spec l a o Hl), kern_acc_again.
  cbn [fst ap_name ap_octave spec_pitch]. rewrite (strip_spec_name l a Hl), L, U, !repeat_string_single.
  unfold spell. change exp_c4_octave with 4. destruct (o >=? 4); reflexivity.
Qed.

Theorem export_pure p : snd (export_pitch p) = p.
Proof. reflexivity. Qed.

Theorem export_twice_same p :
  let '(t1, p1) := export_pitch p in fst (export_pitch p1) = t1.
Proof. reflexivity. Qed.

Theorem codec_round_trip l a o :
  In l letters_z -> In a alts7 ->
  option_map (fun p => fst (export_pitch p)) (import_pitch (spell l a o)) = Some (spell l a o).
Proof. intros Hl Ha. rewrite (parse_spell l a o Hl Ha). cbn [option_map]. f_equal. now apply export_spell. Qed.

Theorem set_name_idempotent l a : In l letters_z -> In a alts7 ->
  forall n, set_name (lower_name l a) = Some n -> set_name n = Some n.
Proof.
  intros Hl Ha n H. destruct (setname_cell_spec l a Hl Ha) as [S1 S2]. rewrite S1 in H. inversion H; subst. exact S2.
Qed.

Example codec_nonvacuous :
  spell 0 1 5 = "cc#" /\ spell 6 (-2) 2 = "BB--" /\ import_pitch "cc#" = Some (spec_pitch 0 1 5).
Proof. vm_compute. auto. Qed.
