(* C17: the token listing visits every node of the tree exactly once, in pre-order (a node, then the sub-trees of its
   children left to right).  For every document whose links form a tree (tree_ok: every imported document). *)
From Coq Require Import List Arith Lia Permutation.
From KV Require Import Strings Importer Queries TreeProofs.
Import ListNotations.

(* the pre-order as a structural definition: depth bounded by the fuel *)
Fixpoint pre (fuel : nat) (d : doc) (i : nat) : list nat :=
  match fuel with
  | O => []
  | S f => i :: flat_map (pre f d) (n_children (get_node d i))
  end.

Section Tree.
  Variable d : doc.
  Hypothesis T : tree_ok d.
  Let n := List.length (d_nodes d).

  (* outside the store get_node answers with the root node of the model, which has no children: what has a child is a node *)
  Lemma child_gt p c : In c (n_children (get_node d p)) -> p < c /\ c < n /\ n_parent (get_node d c) = Some p.
  Proof.
    intros Hin. assert (Hp : p < n).
    { destruct (Nat.lt_ge_cases p n) as [H|H]; [exact H|]. unfold get_node in Hin. now rewrite nth_overflow in Hin. }
    destruct (t_children d T p c Hp Hin) as [C1 C2]. destruct (t_parent d T c p C1 C2) as [P1 _]. auto.
  Qed.

  (* children have larger ids, so n - i bounds the depth below i: with that much fuel the defining equation holds
     at the same fuel on both sides *)
  Lemma pre_unfold : forall f i, i < n -> n - i <= f -> pre f d i = i :: flat_map (pre f d) (n_children (get_node d i)).
  Proof.
    induction f as [|f IH]; intros i Hi Hf; [lia|]. cbn [pre]. f_equal. apply flat_map_ext_in. intros c Hc.
    destruct (child_gt i c Hc) as (? & ? & _). apply IH; lia.
  Qed.

  Lemma same_parent p q c : In c (n_children (get_node d p)) -> In c (n_children (get_node d q)) -> p = q.
  Proof. intros Hp Hq. destruct (child_gt p c Hp) as (_ & _ & E), (child_gt q c Hq) as (_ & _ & E'). congruence. Qed.

  Lemma pre_ge : forall f i x, In x (pre f d i) -> i <= x.
  Proof.
    induction f as [|f IH]; intros i x Hin; [contradiction|]. cbn [pre] in Hin. destruct Hin as [<-|Hin]; [apply le_n|].
    apply in_flat_map in Hin. destruct Hin as [c [Hc Hx]]. destruct (child_gt i c Hc) as [G _]. apply IH in Hx. lia.
  Qed.

  Lemma pre_parent : forall f a c, In c (pre f d a) -> c <> a -> exists p, In c (n_children (get_node d p)) /\ In p (pre f d a).
  Proof.
    induction f as [|f IH]; intros a c Hin Hne; [contradiction|]. cbn [pre] in Hin. destruct Hin as [->|Hin]; [contradiction|].
    apply in_flat_map in Hin. destruct Hin as [c' [Hc' Hx]]. destruct (Nat.eq_dec c c') as [->|Hd].
    - exists a. split; [exact Hc' | now left].
    - destruct (IH c' c Hx Hd) as [p [P1 P2]]. exists p. split; [exact P1|]. cbn [pre]. right. apply in_flat_map. exists c'. split; assumption.
  Qed.

  Lemma child_not_below f p c b : In c (n_children (get_node d p)) -> p < b -> b <> c -> ~ In c (pre f d b).
  Proof.
    intros Hc Hpb Hne Hin. destruct (pre_parent f b c Hin ltac:(auto)) as [q [Q1 Q2]].
    rewrite (same_parent q p c Q1 Hc) in Q2. apply pre_ge in Q2. lia.
  Qed.

  (* two sub-trees that share a node x are nested: follow the parents of x, which are the same in both *)
  Lemma pre_nested f a b : forall x, In x (pre f d a) -> In x (pre f d b) -> In a (pre f d b) \/ In b (pre f d a).
  Proof.
    induction x as [x IH] using lt_wf_ind. intros H1 H2.
    destruct (Nat.eq_dec x a) as [->|Na]; [now left|]. destruct (Nat.eq_dec x b) as [->|Nb]; [now right|].
    destruct (pre_parent f a x H1 Na) as [p [P1 P2]]. destruct (pre_parent f b x H2 Nb) as [q [Q1 Q2]].
    rewrite (same_parent q p x Q1 P1) in Q2. apply (IH p); [apply (child_gt p x P1) | exact P2 | exact Q2].
  Qed.

  Lemma pre_nodup : forall f i, i < n -> NoDup (pre f d i).
  Proof.
    induction f as [|f IH]; intros i Hi; [constructor|]. cbn [pre]. constructor.
    - intros Hin. apply in_flat_map in Hin. destruct Hin as [c [Hc Hx]]. destruct (child_gt i c Hc) as [G _].
      apply pre_ge in Hx. lia.
    - apply NoDup_flat_map.
      + apply (t_nodup d T i Hi).
      + intros c Hc. apply IH. apply (child_gt i c Hc).
      + intros c1 c2 z H1 H2 Hne Hz1 Hz2. destruct (child_gt i c1 H1) as [L1 _], (child_gt i c2 H2) as [L2 _].
        destruct (pre_nested f c1 c2 z Hz1 Hz2) as [H|H];
          [apply (child_not_below f i c1 c2) in H | apply (child_not_below f i c2 c1) in H]; auto.
  Qed.

  Lemma pre_child : forall f a p c, n - a <= f -> In p (pre f d a) -> In c (n_children (get_node d p)) -> In c (pre f d a).
  Proof.
    induction f as [|f IH]; intros a p c Hf Hp Hc; [contradiction|]. cbn [pre] in *. right. apply in_flat_map.
    destruct Hp as [->|Hp].
    - exists c. split; [exact Hc|]. destruct f; [destruct (child_gt p c Hc); lia | now left].
    - apply in_flat_map in Hp. destruct Hp as [b [Hb Hp]]. destruct (child_gt a b Hb). exists b. split; [exact Hb|].
      apply (IH b p c); [lia | exact Hp | exact Hc].
  Qed.

  Lemma pre_complete : forall j, j < n -> In j (pre n d 0).
  Proof.
    assert (H0 : 0 < n) by apply T.
    induction j as [j IH] using lt_wf_ind. intros Hj. destruct (Nat.eq_dec j 0) as [->|Hne].
    - rewrite pre_unfold by lia. now left.
    - destruct (n_parent (get_node d j)) as [p|] eqn:Ep; [|exfalso; apply (t_hasparent d T j); [lia | exact Hj | exact Ep]].
      destruct (t_parent d T j p Hj Ep) as [P1 P2]. apply (pre_child n 0 p j); [lia | apply IH; lia | exact P2].
  Qed.

  Theorem pre_is_permutation : Permutation (pre n d 0) (seq 0 n).
  Proof.
    assert (H0 : 0 < n) by apply T.
    apply NoDup_Permutation; [apply pre_nodup; exact H0 | apply seq_NoDup|].
    intros x. rewrite in_seq. split.
    - intros Hin. split; [lia|]. destruct (Nat.eq_dec x 0) as [->|N]; [exact H0|].
      destruct (pre_parent n 0 x Hin N) as [p [Hp _]]. apply (child_gt p x Hp).
    - intros [_ Hx]. apply pre_complete. exact Hx.
  Qed.

  (* Node.dfs_iterative (explicit stack) computes that pre-order: the stack holds the roots of the sub-trees still to
     be listed, and each step replaces the top one by its children *)
  Lemma dfs_is_pre : forall fuel stack, Forall (fun i => i < n) stack -> List.length (flat_map (pre n d) stack) < fuel ->
    dfs fuel d stack = flat_map (pre n d) stack.
  Proof.
    induction fuel as [|f IH]; intros stack Hs Hf; [lia|]. destruct stack as [|i rest]; [reflexivity|].
    inversion Hs as [|? ? Hi Hrest]; subst. cbn [dfs flat_map] in *. rewrite (pre_unfold n i Hi) in * by lia. cbn [app List.length] in *.
    f_equal. rewrite <- flat_map_app in *. apply IH; [|lia].
    apply Forall_app. split; [|exact Hrest]. apply Forall_forall. intros c Hc. apply (child_gt i c Hc).
  Qed.

  Theorem dfs_order_is_preorder : dfs_order d = pre n d 0.
  Proof.
    assert (H0 : 0 < n) by apply T. unfold dfs_order. fold n. rewrite dfs_is_pre; cbn [flat_map]; rewrite ?app_nil_r.
    - reflexivity.
    - constructor; [exact H0 | constructor].
    - rewrite (Permutation_length pre_is_permutation), seq_length. lia.
  Qed.
End Tree.

Theorem listing_is_preorder bad text d : loads bad text = IOk d ->
  dfs_order d = pre (List.length (d_nodes d)) d 0 /\
  Permutation (dfs_order d) (seq 0 (List.length (d_nodes d))) /\ NoDup (dfs_order d) /\
  (forall i, i < List.length (d_nodes d) ->
     pre (List.length (d_nodes d)) d i = i :: flat_map (pre (List.length (d_nodes d)) d) (n_children (get_node d i))).
Proof.
  intros H. pose proof (loads_tree_ok bad text d H) as T. rewrite (dfs_order_is_preorder d T).
  split; [reflexivity|]. split; [exact (pre_is_permutation d T)|]. split; [apply (pre_nodup d T), T|].
  intros i Hi. apply pre_unfold; [exact T | exact Hi | lia].
Qed.
