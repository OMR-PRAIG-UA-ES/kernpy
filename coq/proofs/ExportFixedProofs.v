(* C01 at token level: the kern export of a canonical note is its canonical text, and re-importing that text gives
   the same token - export o import o export = export for every well-formed single note whose signifiers are in
   canonical (sorted) order.  The argument is made once, for any note or rest token whose sub-token lists are sorted and
   whose text is written with [plainc] characters (kern_export_sorted): sorting and filtering change nothing, and
   stripping the separators from the joined texts leaves their concatenation. *)
From Coq Require Import List String Ascii Bool ZArith Sorted.
From KV Require Import Strings CatGen Token Tokenizers KernTok StringProofs TokenProofs CanonProofs ScanProofs.
Import ListNotations.
Open Scope list_scope.

(* [plainc c]: c is neither '@', the token separator, nor byte 194, the first of the decoration separator (U+00B7 in
   UTF-8); nothing a canonical note is written with is *)
Definition plainc (c : ascii) : bool := negb (Ascii.eqb c "@") && negb (Ascii.eqb c (ascii_of_nat 194)).

Definition amp : ascii := "@"%char.
Definition mid0 : ascii := ascii_of_nat 194.

Lemma token_separator_val : token_separator = String amp ""%string. Proof. reflexivity. Qed.
Lemma decoration_separator_val : exists p, decoration_separator = String mid0 p. Proof. eexists. reflexivity. Qed.

Lemma plainc_of (P : ascii -> bool) c : P amp = false -> P mid0 = false -> P c = true -> plainc c = true.
Proof.
  intros Ha Hm Hc. apply andb_true_intro. split; apply negb_true_iff; [exact (class_neq P c amp Hc Ha) | exact (class_neq P c mid0 Hc Hm)].
Qed.

Lemma forallb_plain (P : ascii -> bool) l : P amp = false -> P mid0 = false -> forallb P l = true -> forallb plainc l = true.
Proof. intros Ha Hm. apply forallb_impl. intros c. now apply plainc_of. Qed.

Lemma plain_in s c : in_chars s c = true -> (forall x, in_chars s x = true -> plainc x = true) -> plainc c = true.
Proof. intros H G. apply G. exact H. Qed.

Lemma plain_of_set c : in_chars "#-n%.qpP" c = true -> plainc c = true.
Proof. now apply plainc_of. Qed.

Lemma plain_avoids l : forallb plainc l = true -> avoids amp (str l) = true /\ avoids mid0 (str l) = true.
Proof.
  induction l as [|c l IH]; [split; reflexivity|]. intros H. cbn [forallb] in H. apply andb_true_iff in H as [Hc H].
  destruct (IH H) as [I1 I2]. unfold plainc in Hc. apply andb_true_iff in Hc as [H1 H2]. split; apply andb_true_iff; split; assumption.
Qed.

(* the text below is the content that export_noterest builds when no pitch conversion is asked for *)
Theorem strip_joined parts dparts :
  forallb (avoids amp) parts = true -> forallb (avoids mid0) parts = true ->
  forallb (avoids amp) dparts = true -> forallb (avoids mid0) dparts = true ->
  strip_separators (if String.eqb (join decoration_separator dparts) "" then join token_separator parts
                    else (join token_separator parts ++ decoration_separator ++ join decoration_separator dparts)%string)
  = (String.concat "" parts ++ String.concat "" dparts)%string.
Proof.
  intros Pa Pm Da Dm. unfold strip_separators. rewrite token_separator_val. destruct decoration_separator_val as [p Ep]. rewrite Ep.
  assert (Hsep : avoids amp (String mid0 p) = true) by (rewrite <- Ep; reflexivity).
  pose proof Hsep as Hp. cbn [avoids] in Hp. apply andb_true_iff in Hp as [_ Hp].
  destruct (String.eqb_spec (join (String mid0 p) dparts) "") as [E|_].
  - rewrite (join_nil _ _ E), append_nil_r, (replace_join Pa). apply replace_avoids. now rewrite avoids_concat.
  - (* its first byte makes the decoration separator a barrier for the removal of '@', and what follows it holds no '@' *)
    cbn [append]. rewrite (replace_barrier amp "" "" mid0 _ _ eq_refl), (replace_join Pa).
    rewrite (replace_avoids amp) by now rewrite avoids_app, Hp, (avoids_join _ _ _ Hsep Da).
    change (String mid0 (p ++ ?x)) with (String mid0 p ++ x)%string.
    rewrite replace_skip, replace_occ, (replace_join Dm) by now rewrite avoids_concat. reflexivity.
Qed.

Lemma filter_keep_all (l : list subtoken) : filter (fun s => keep_of all_cats (st_cat s)) l = l.
Proof. apply filter_all. intros s _. apply mem_all. Qed.

Theorem kern_export_sorted n chars : sorted sub_cat_leb (nr_pd n) -> sorted sub_full_leb (nr_deco n) ->
  (String.concat "" (map st_enc (nr_pd n)) ++ String.concat "" (map st_enc (nr_deco n)))%string = str chars ->
  forallb plainc chars = true -> chars <> [] ->
  kern_tokenize all_cats (TNoteRest n) = Ok (str chars).
Proof.
  intros Sp Sd Et Hpl Hne. unfold kern_tokenize, ekern_tokenize. cbn [export_token]. unfold export_noterest.
  rewrite !filter_keep_all, (stable_sort_id _ _ Sp), (stable_sort_id _ _ Sd). cbv zeta.
  destruct (plain_avoids _ Hpl) as [Ha Hm]. rewrite <- Et, avoids_app, !avoids_concat in Ha, Hm.
  apply andb_true_iff in Ha as [Pa Da]. apply andb_true_iff in Hm as [Pm Dm].
  pose proof (strip_joined _ _ Pa Pm Da Dm) as E. rewrite Et in E. set (C := if String.eqb (join decoration_separator _) "" then _ else _) in *.
  destruct (String.eqb_spec C "") as [E0|_]; cbn [map_res]; [|now rewrite E]. rewrite E0 in E. now destruct chars.
Qed.

Lemma mk_durs_sorted ds tl : sorted sub_cat_leb tl ->
  forallb (fun s => Z.leb (cat_value DURATION) (cat_value (st_cat s))) tl = true -> sorted sub_cat_leb (mk_durs ds ++ tl).
Proof.
  intros Hs Hd. induction ds as [|d ds IH]; cbn [mk_durs map app]; [exact Hs|]. constructor; [exact IH|].
  apply Forall_app. split; apply Forall_forall.
  - intros b Hb. apply in_map_iff in Hb as [e [<- _]]. reflexivity.
  - rewrite forallb_forall in Hd. exact Hd.
Qed.

Lemma mk_durs_enc ds : map st_enc (mk_durs ds) = ds.
Proof. unfold mk_durs. rewrite map_map. apply map_id. Qed.

Lemma concat_single_chars l : String.concat "" (map st_enc (map deco_of l)) = str l.
Proof. induction l as [|x l IH]; [reflexivity|]. cbn [map]. now rewrite concat_str_cons, IH. Qed.

Lemma str_app a b : str (a ++ b) = (str a ++ str b)%string.
Proof. apply string_of_chars_app. Qed.

Lemma note_texts n :
  (String.concat "" (map st_enc (note_pd n)) ++ String.concat "" (map st_enc (map deco_of (nt_decos n))))%string = str (print_note n).
Proof.
  unfold note_pd, print_note. rewrite !map_app, !concat_str_app, mk_durs_enc, concat_single_chars, !str_app, !append_assoc.
  f_equal; [destruct (nt_dur n); [apply concat_dur_tokens | reflexivity]|]. f_equal. f_equal. destruct (acc_chars n); reflexivity.
Qed.

Lemma print_dur_plain d : dur_ok d -> forallb plainc (print_dur d) = true.
Proof.
  intros [Hn [_ [Hf Hg]]]. unfold print_dur, modern_chars. rewrite !forallb_app, (forallb_plain is_digit _ eq_refl eq_refl Hn), (forallb_repeat plainc "."%char _ eq_refl).
  apply andb_true_iff. split.
  - destruct (cd_frac d) as [f|]; [|reflexivity]. exact (forallb_plain is_digit _ eq_refl eq_refl (proj1 Hf)).
  - destruct (grace_cases _ Hg) as [->|[->|[->|[->| ->]]]]; reflexivity.
Qed.

Lemma core_plain core : core_ok core = true -> forallb plainc core = true.
Proof.
  destruct core as [|c core]; [reflexivity|]. intros H.
  destruct (core_ok_cons c core H) as [[-> ->]|[[->| ->] [Hrun _]]]; [reflexivity | |];
    (eapply forallb_plain; [| | exact Hrun]; reflexivity).
Qed.

Lemma print_note_plain n : note_ok n -> forallb plainc (print_note n) = true.
Proof.
  intros [Hdur [Hp [Hc [Hd [_ [Hde _]]]]]]. unfold print_note, pitch_chars, acc_chars. rewrite !forallb_app.
  rewrite (forallb_repeat plainc _ _ (plainc_of is_pitch_letter _ eq_refl eq_refl Hp)), (core_plain _ Hc).
  rewrite (forallb_plain is_display _ eq_refl eq_refl (disp_display _ Hd)), (forallb_plain is_note_deco _ eq_refl eq_refl Hde), !andb_true_r.
  destruct (nt_dur n); [now apply print_dur_plain | reflexivity].
Qed.

Definition canonical_order (n : cnote) : Prop :=
  StronglySorted (fun a b => sub_full_leb a b = true) (map deco_of (nt_decos n)).

Theorem kern_export_canonical_note n : note_ok n -> canonical_order n ->
  kern_tokenize all_cats (note_token n) = Ok (str (print_note n)).
Proof.
  intros Hok Hs. apply kern_export_sorted; [apply mk_durs_sorted; destruct (acc_chars n); repeat constructor | exact Hs | apply note_texts |
    now apply print_note_plain | exact (starts_nonempty (print_note_head n Hok))].
Qed.

(* the form in which C01 states the fixed point of a note and of a rest, from its two halves *)
Lemma export_import_export t x : kern_tokenize all_cats t = Ok x -> kern_recognise x = KTok t ->
  exists text, kern_tokenize all_cats t = Ok text /\ kern_recognise text = KTok t /\
               (forall t', kern_recognise text = KTok t' -> kern_tokenize all_cats t' = Ok text).
Proof. intros E R. exists x. split; [exact E | split; [exact R | intros t' H]]. rewrite R in H. now injection H as <-. Qed.

Example canonical_order_example :
  canonical_order {| nt_dur := None; nt_pitch := "c"; nt_oct := 0; nt_core := []; nt_disp := []; nt_decos := chars_of_string ";JL" |}.
Proof. unfold canonical_order. cbn. repeat constructor. Qed.
