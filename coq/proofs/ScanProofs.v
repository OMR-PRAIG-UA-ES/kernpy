(* Parser correctness on canonical note text (C01 / C03): the CKL scanner + listener, run on the printed form
   duration ++ pitch ++ accidental ++ signifiers of a well-formed note ([cnote], [note_ok], [print_note]), returns
   exactly the note's sub-tokens and consumes the whole text (recognise_print_note).  The note scanner is followed in any
   listener state and up to the blank that separates the notes of a chord (scan_note_print), so that single notes and
   chords (ChordProofs) rest on the same theorem; rests (RestProofs) share the duration part (scan_duration_print) and
   the recogniser's entry (recognise_elements). *)
From Coq Require Import List String Ascii Bool ZArith.
From KV Require Import Strings StringProofs CatGen Token KernTok CanonProofs.
Import ListNotations.
Open Scope list_scope.

Definition stops (p : ascii -> bool) (b : chars) : Prop := match b with [] => True | c :: _ => p c = false end.

(* the dual: the text is not empty and begins inside p *)
Definition starts (p : ascii -> bool) (b : chars) : Prop := match b with [] => False | c :: _ => p c = true end.

Lemma starts_app {p q : ascii -> bool} {l X} : (forall c, p c = true -> q c = true) -> starts p l -> starts q (l ++ X).
Proof. intros H. destruct l; [intros [] | apply H]. Qed.

Lemma starts_stops {p q : ascii -> bool} {l X} : (forall c, p c = true -> q c = false) -> starts p l -> stops q (l ++ X).
Proof. intros H. destruct l; [intros [] | apply H]. Qed.

Lemma starts_nonempty {p : ascii -> bool} {l} : starts p l -> l <> [].
Proof. intros H ->. exact H. Qed.

Lemma take_while_app p : forall a b, forallb p a = true -> stops p b -> take_while p (a ++ b) = (a, b).
Proof.
  induction a as [|x a IH]; intros b Ha Hb; simpl.
  - destruct b as [|c b]; [reflexivity|]. simpl in Hb. simpl. now rewrite Hb.
  - simpl in Ha. apply andb_true_iff in Ha. destruct Ha as [Hx Ha]. rewrite Hx, (IH b Ha Hb). reflexivity.
Qed.

Lemma take_while_none p b : stops p b -> take_while p b = ([], b).
Proof. intros H. exact (take_while_app p [] b eq_refl H). Qed.

Lemma take_while_all p a : forallb p a = true -> take_while p a = (a, []).
Proof. intros H. pose proof (take_while_app p a [] H I) as E. now rewrite app_nil_r in E. Qed.

(* the shape in which the scanner looks one character ahead *)
Lemma lookahead {A} (p : ascii -> bool) l (f : ascii -> chars -> A) (b : A) : stops p l ->
  match l with c :: r => if p c then f c r else b | [] => b end = b.
Proof. destruct l; [reflexivity|]. simpl. intros ->. reflexivity. Qed.

Lemma stops_head p l : stops p l -> match l with c :: _ => p c | [] => false end = false.
Proof. destruct l; [reflexivity | exact (fun H => H)]. Qed.

(* at each use q and s are given, and the premise is decided by computation *)
Lemma class_rejects (q : ascii -> bool) s : forallb (fun c => negb (q c)) (chars_of_string s) = true ->
  forall c, in_chars s c = true -> q c = false.
Proof.
  unfold in_chars. induction s as [|x s IH]; cbn [chars_of_string forallb contains_char]; [discriminate|].
  intros H c Hc. apply andb_true_iff in H as [Hx Hs]. apply orb_true_iff in Hc as [Hc|Hc]; [|exact (IH Hs c Hc)].
  apply Ascii.eqb_eq in Hc. subst c. now apply negb_true_iff.
Qed.

(* for a literal k the last premise is eq_refl *)
Lemma class_neq (p : ascii -> bool) c k : p c = true -> p k = false -> Ascii.eqb c k = false.
Proof. intros Hc Hk. destruct (Ascii.eqb_spec c k) as [->|_]; [congruence | reflexivity]. Qed.

Lemma stops_eqb (p : ascii -> bool) c l : p c = true -> stops p l -> stops (Ascii.eqb c) l.
Proof. intros Hc. destruct l as [|k l]; [trivial | exact (class_neq p c k Hc)]. Qed.

(* every character with a part in the grammar of a cell of notes, up to the rest letter r and the blank between the
   notes of a chord: the signifier table is checked against all of them, though the proofs use only digits and pitch letters *)
Definition special (c : ascii) : bool :=
  is_digit c || is_pitch_letter c || in_chars "#-n%.qpPr " c.

Lemma deco_not_special c : is_note_deco c = true -> special c = false.
Proof. apply (class_rejects special note_deco_chars). vm_compute. reflexivity. Qed.

Lemma special_parts c : special c = false ->
  is_digit c = false /\ is_pitch_letter c = false /\ in_chars "#-n%.qpPr " c = false.
Proof. unfold special. intros H. apply orb_false_iff in H. destruct H as [H H3]. apply orb_false_iff in H. tauto. Qed.

(* what the canonical text of a note, a rest or a chord starts with *)
Definition note_start (c : ascii) : bool := is_digit c || is_pitch_letter c.

Lemma digit_start c : is_digit c = true -> note_start c = true.
Proof. unfold note_start. now intros ->. Qed.

Lemma pitch_start c : is_pitch_letter c = true -> note_start c = true.
Proof. unfold note_start. intros ->. apply orb_true_r. Qed.

Lemma note_start_not_deco c : note_start c = true -> is_note_deco c = false.
Proof.
  intros H. destruct (is_note_deco c) eqn:E; [|reflexivity]. destruct (special_parts c (deco_not_special c E)) as [Hd [Hp _]].
  unfold note_start in H. rewrite Hd, Hp in H. discriminate H.
Qed.

Lemma scan_number_app ds X : forallb is_digit ds = true -> ds <> [] -> stops is_digit X -> scan_number (ds ++ X) = Some (ds, X).
Proof.
  intros Hd Hne Hx. unfold scan_number. rewrite (take_while_app is_digit ds X Hd Hx). destruct ds; [contradiction | reflexivity].
Qed.

(* a canonical duration: digits, optional %digits, dots, optional grace / appoggiatura mark *)
Record cdur := { cd_num : chars; cd_frac : option chars; cd_dots : nat; cd_grace : string }.

Definition grace_ok (g : string) : bool := mem_str g [""; "q"; "qq"; "p"; "P"]%string.

Definition dur_ok (d : cdur) : Prop :=
  forallb is_digit (cd_num d) = true /\ cd_num d <> [] /\
  match cd_frac d with Some f => forallb is_digit f = true /\ f <> [] | None => True end /\
  grace_ok (cd_grace d) = true.

Definition modern_chars (d : cdur) : chars :=
  cd_num d ++ match cd_frac d with Some f => "%"%char :: f | None => [] end.
Definition print_dur (d : cdur) : chars :=
  modern_chars d ++ repeat "."%char (cd_dots d) ++ chars_of_string (cd_grace d).
Definition dur_tokens (d : cdur) : list string :=
  str (modern_chars d) :: repeat "."%string (cd_dots d) ++ (if String.eqb (cd_grace d) "" then [] else [cd_grace d]).

Lemma print_dur_head d : dur_ok d -> starts is_digit (print_dur d).
Proof.
  intros [Hn [Hne _]]. unfold print_dur, modern_chars. destruct (cd_num d) as [|x xs]; [contradiction|].
  exact (proj1 (andb_prop _ _ Hn)).
Qed.

(* the characters that would continue a duration, tested the way scan_duration tests them *)
Definition dur_more (c : ascii) : bool :=
  is_digit c || Ascii.eqb c "%" || Ascii.eqb "." c || Ascii.eqb c "q" || Ascii.eqb c "p" || Ascii.eqb c "P".

Lemma pitch_ends_duration c : is_pitch_letter c = true -> dur_more c = false.
Proof. apply (class_rejects dur_more "abcdefgABCDEFG"). vm_compute. reflexivity. Qed.

Lemma pitch_not_digit c : is_pitch_letter c = true -> is_digit c = false.
Proof. intros H. apply pitch_ends_duration in H. unfold dur_more in H. destruct (is_digit c); [discriminate H | reflexivity]. Qed.

Lemma scan_duration_none c l : is_digit c = false -> scan_duration (c :: l) = None.
Proof. intros H. unfold scan_duration, scan_number. cbn [take_while]. now rewrite H. Qed.

Lemma map_dots n : map (fun _ : ascii => "."%string) (repeat "."%char n) = repeat "."%string n.
Proof. induction n; simpl; congruence. Qed.

Lemma grace_cases g : grace_ok g = true -> g = ""%string \/ g = "q"%string \/ g = "qq"%string \/ g = "p"%string \/ g = "P"%string.
Proof. intros H. apply mem_str_In in H. destruct H as [<-|[<-|[<-|[<-|[<-|[]]]]]]; auto 6. Qed.

Lemma bind_some {A B} (o : option A) (k : A -> option B) a : o = Some a ->
  match o with Some x => k x | None => None end = k a.
Proof. now intros ->. Qed.

Theorem scan_duration_print d x X : dur_ok d -> dur_more x = false ->
  scan_duration (print_dur d ++ x :: X) = Some (dur_tokens d, x :: X).
Proof.
  intros [Hn [Hne [Hf Hg]]] Hx. unfold dur_more in Hx.
  apply orb_false_elim in Hx as [Hx HP]. apply orb_false_elim in Hx as [Hx Hp]. apply orb_false_elim in Hx as [Hx Hq].
  apply orb_false_elim in Hx as [Hx Hdot]. apply orb_false_elim in Hx as [Hd Hpct].
  destruct d as [num frac dots g]. cbn [cd_num cd_frac cd_dots cd_grace] in *.
  unfold scan_duration, print_dur, dur_tokens, modern_chars. cbn [cd_num cd_frac cd_dots cd_grace]. rewrite <- !app_assoc.
  set (R3 := chars_of_string g ++ x :: X). set (R2 := repeat "."%char dots ++ R3).
  (* R3 starts with q, p, P or x; R2 with one of these or a dot *)
  assert (S3 : forall p, p x = false -> p "q"%char = false -> p "p"%char = false -> p "P"%char = false -> stops p R3).
  { intros p ? ? ? ?. unfold R3. destruct (grace_cases g Hg) as [->|[->|[->|[->| ->]]]]; assumption. }
  assert (S2 : forall p, p x = false -> p "q"%char = false -> p "p"%char = false -> p "P"%char = false -> p "."%char = false ->
               stops p R2).
  { intros p ? ? ? ? ?. unfold R2. destruct dots; [apply S3 |]; assumption. }
  rewrite (scan_number_app num _ Hn Hne) by (destruct frac; [reflexivity | apply S2; auto]).
  rewrite (bind_some _ _ (num ++ match frac with Some f => "%"%char :: f | None => [] end, R2)).
  2: { destruct frac as [f|]; cbn [app].
       - destruct Hf as [Hfd Hfne]. rewrite Ascii.eqb_refl, (scan_number_app f R2 Hfd Hfne) by (apply S2; auto). reflexivity.
       - rewrite app_nil_r. apply (lookahead (fun c => Ascii.eqb c "%")), S2; auto. }
  unfold R2. rewrite (take_while_app (Ascii.eqb ".") (repeat "."%char dots) R3), map_dots
    by first [apply forallb_repeat; reflexivity | apply S3; auto].
  (* the grace mark is read the same whatever tokens stand before it *)
  unfold R3. generalize (str (num ++ match frac with Some f => "%"%char :: f | None => [] end)) (repeat "."%string dots). intros m ds.
  destruct (grace_cases g Hg) as [->|[->|[->|[->| ->]]]]; cbn [chars_of_string app String.eqb];
    [rewrite Hq, Hp, HP, app_nil_r | rewrite Hq | | |]; reflexivity.
Qed.

Definition core_ok (core : chars) : bool :=
  match core with
  | [] => true
  | c :: _ => ((Ascii.eqb c "#" && forallb (Ascii.eqb "#") core) || (Ascii.eqb c "-" && forallb (Ascii.eqb "-") core)) && Nat.leb (List.length core) 3
              || (Ascii.eqb c "n" && Nat.eqb (List.length core) 1)
  end.
Definition disp_ok (disp : chars) : bool :=
  match disp with
  | [] => true
  | [c] => is_display c
  | [c1; c2] => (Ascii.eqb c1 "y" && Ascii.eqb c2 "y") || (Ascii.eqb c1 "Y" && Ascii.eqb c2 "Y")
  | _ => false
  end.

Lemma core_ok_cons c core : core_ok (c :: core) = true ->
  (c = "n"%char /\ core = []) \/
  ((c = "#"%char \/ c = "-"%char) /\ forallb (Ascii.eqb c) (c :: core) = true /\ Nat.leb (List.length (c :: core)) 3 = true).
Proof.
  unfold core_ok. intros H. apply orb_true_iff in H. destruct H as [H|H]; apply andb_true_iff in H; destruct H as [H Hl].
  - right. apply orb_true_iff in H. destruct H as [H|H]; apply andb_true_iff in H; destruct H as [H Hr]; apply Ascii.eqb_eq in H; subst c; auto.
  - left. apply Ascii.eqb_eq in H. subst c. destruct core; [auto | discriminate Hl].
Qed.

Lemma disp_display disp : disp_ok disp = true -> forallb is_display disp = true.
Proof.
  destruct disp as [|d1 [|d2 [|d3 disp']]]; simpl; try discriminate; [reflexivity | now intros -> |].
  intros H. apply orb_true_iff in H. destruct H as [H|H]; apply andb_true_iff in H; destruct H as [H1 H2];
    apply Ascii.eqb_eq in H1; apply Ascii.eqb_eq in H2; subst d1 d2; reflexivity.
Qed.

(* a character that may follow the accidental: a stand-alone signifier, or the blank that separates the notes of a chord *)
Definition trailer (c : ascii) : bool := is_note_deco c || Ascii.eqb c " ".

(* what may follow an accidental in canonical text: nothing, or a [trailer] that cannot be taken for (part of) the
   display suffix *)
Definition after_acc (disp X : chars) : Prop :=
  match X with
  | [] => True
  | c :: _ => trailer c = true /\ (disp = [] -> is_display c = false)
  end.

Lemma scan_acc_core_print c core disp X : core_ok (c :: core) = true -> disp_ok disp = true -> after_acc disp X ->
  scan_acc_core ((c :: core) ++ disp ++ X) = Some (c :: core, disp ++ X).
Proof.
  intros Hc Hd HX. destruct (core_ok_cons c core Hc) as [[-> ->]|[Hc0 [Hrun Hlen]]]; [reflexivity|].
  (* a run of c: neither a display character nor what may follow the accidental prolongs it *)
  assert (Hstop : stops (Ascii.eqb c) (disp ++ X)).
  { assert (G : forall p y, p y = true -> p "#"%char = false -> p "-"%char = false -> Ascii.eqb c y = false).
    { intros p y Hy ? ?. rewrite Ascii.eqb_sym. apply (class_neq p y c Hy). destruct Hc0 as [->| ->]; assumption. }
    destruct disp as [|d disp']; [destruct X as [|x X']; [exact I|]|].
    - destruct HX as [Hx _]. exact (G trailer x Hx eq_refl eq_refl).
    - exact (G is_display d (proj1 (andb_prop _ _ (disp_display _ Hd))) eq_refl eq_refl). }
  destruct Hc0 as [->| ->]; unfold scan_acc_core; rewrite (take_while_app _ _ (disp ++ X) Hrun Hstop); cbn [app]; rewrite Hlen;
    reflexivity.
Qed.

Lemma scan_acc_display_print a disp X : disp_ok disp = true -> after_acc disp X ->
  scan_acc_display a (disp ++ X) = (a ++ disp, X).
Proof.
  intros Hd HX. unfold scan_acc_display.
  destruct disp as [|d1 [|d2 [|d3 disp']]]; simpl in Hd; try discriminate; cbn [app].
  - rewrite app_nil_r. apply lookahead. destruct X as [|x X']; [exact I | exact (proj2 HX eq_refl)].
  - rewrite Hd. destruct (Ascii.eqb d1 "y" || Ascii.eqb d1 "Y") eqn:Ey; [|reflexivity].
    (* after y or Y the next character is not the same again *)
    destruct X as [|x X']; [reflexivity|]. destruct HX as [Hx _].
    rewrite (class_neq trailer x d1 Hx); [reflexivity|].
    apply orb_true_iff in Ey. destruct Ey as [Ey|Ey]; apply Ascii.eqb_eq in Ey; subst d1; reflexivity.
  - apply orb_true_iff in Hd. destruct Hd as [Hd|Hd]; apply andb_true_iff in Hd; destruct Hd as [H1 H2];
      apply Ascii.eqb_eq in H1; apply Ascii.eqb_eq in H2; subst d1 d2; reflexivity.
Qed.

(* the accidental is not empty: a note without one meets scan_accidental only after its signifiers, before the blank or
   the end of the text (scan_accidental_sep) *)
Theorem scan_accidental_print c core disp X : core_ok (c :: core) = true -> disp_ok disp = true -> after_acc disp X ->
  scan_accidental ((c :: core) ++ disp ++ X) = Some ((c :: core) ++ disp, X).
Proof.
  intros Hc Hd HX. unfold scan_accidental.
  rewrite (scan_acc_core_print c core disp X Hc Hd HX), (scan_acc_display_print (c :: core) disp X Hd HX). reflexivity.
Qed.

Record cnote := { nt_dur : option cdur; nt_pitch : ascii; nt_oct : nat; nt_core : chars; nt_disp : chars; nt_decos : chars }.

(* last clause: after an accidental without display suffix the first signifier is not one of i j X Z, which are display
   suffixes too and would be read as one *)
Definition note_ok (n : cnote) : Prop :=
  match nt_dur n with Some d => dur_ok d | None => True end /\
  is_pitch_letter (nt_pitch n) = true /\
  core_ok (nt_core n) = true /\ disp_ok (nt_disp n) = true /\ (nt_core n = [] -> nt_disp n = []) /\
  forallb is_note_deco (nt_decos n) = true /\ NoDup (nt_decos n) /\
  (nt_core n <> [] -> nt_disp n = [] -> match nt_decos n with c :: _ => is_display c = false | [] => True end).

Definition pitch_chars (n : cnote) : chars := repeat (nt_pitch n) (S (nt_oct n)).
Definition acc_chars (n : cnote) : chars := nt_core n ++ nt_disp n.
Definition print_note (n : cnote) : chars :=
  match nt_dur n with Some d => print_dur d | None => [] end ++ pitch_chars n ++ acc_chars n ++ nt_decos n.

Definition note_pd (n : cnote) : list subtoken :=
  mk_durs (match nt_dur n with Some d => dur_tokens d | None => [] end)
  ++ [{| st_enc := str (pitch_chars n); st_cat := PITCH |}]
  ++ match acc_chars n with [] => [] | a => [{| st_enc := str a; st_cat := ALTERATION |}] end.

Lemma concat_dur_tokens d : String.concat "" (dur_tokens d) = str (print_dur d).
Proof.
  unfold dur_tokens, print_dur, str. rewrite concat_str_cons, concat_str_app, !string_of_chars_app. f_equal. f_equal.
  - induction (cd_dots d) as [|k IH]; [reflexivity|]. cbn [repeat]. now rewrite concat_str_cons, IH.
  - rewrite string_of_chars_of_string. destruct (String.eqb_spec (cd_grace d) "") as [->|_]; reflexivity.
Qed.

Lemma print_note_head n : note_ok n -> starts note_start (print_note n).
Proof.
  intros [Hdur [Hp _]]. unfold print_note.
  destruct (nt_dur n) as [d|]; [exact (starts_app digit_start (print_dur_head d Hdur)) | exact (pitch_start _ Hp)].
Qed.

(* a note is followed by the end of the text or, inside a chord, by a blank *)
Definition sep_ok (X : chars) : Prop := match X with [] => True | c :: _ => c = " "%char end.

Lemma sep_stops p X : p " "%char = false -> sep_ok X -> stops p X.
Proof. destruct X as [|c X']; simpl; [trivial | intros H ->; exact H]. Qed.

Lemma scan_accidental_sep X : sep_ok X -> scan_accidental X = Some ([], X).
Proof. destruct X as [|c X']; [reflexivity|]. simpl. intros ->. reflexivity. Qed.

Lemma after_decos disp decos X : forallb is_note_deco decos = true -> sep_ok X ->
  (disp = [] -> stops is_display decos) -> after_acc disp (decos ++ X).
Proof.
  intros Hde HX Hdisp. destruct decos as [|x xs]; cbn [app].
  - destruct X as [|y X']; [exact I|]. simpl in HX. subst y. split; [reflexivity | intros _; reflexivity].
  - simpl in Hde. apply andb_true_iff in Hde. destruct Hde as [Hx _]. split; [unfold trailer; now rewrite Hx | exact Hdisp].
Qed.

Lemma note_tail_head n X : note_ok n -> sep_ok X -> stops is_pitch_letter (acc_chars n ++ nt_decos n ++ X).
Proof.
  intros [_ [_ [Hc [_ [Hcd [Hde _]]]]]] HX. unfold acc_chars. destruct (nt_core n) as [|c core'].
  - rewrite (Hcd eq_refl). cbn [app]. destruct (nt_decos n) as [|x xs]; cbn [app].
    + exact (sep_stops is_pitch_letter X eq_refl HX).
    + simpl in Hde. apply andb_true_iff in Hde. apply (special_parts x (deco_not_special x (proj1 Hde))).
  - destruct (core_ok_cons c core' Hc) as [[-> _]|[[->| ->] _]]; reflexivity.
Qed.

Lemma scan_note_tail_print st n dtext durs X : note_ok n -> sep_ok X ->
  scan_note_tail st [] dtext [] (pitch_chars n) durs (acc_chars n ++ nt_decos n ++ X) =
  Some (dtext ++ pitch_chars n ++ acc_chars n ++ nt_decos n,
        {| ls_deco := add_decos (ls_deco st) (nt_decos n); ls_dur := match durs with Some ds => mk_durs ds | None => ls_dur st end |},
        match durs with Some ds => mk_durs ds | None => ls_dur st end ++ [{| st_enc := str (pitch_chars n); st_cat := PITCH |}]
        ++ match acc_chars n with [] => [] | a => [{| st_enc := str a; st_cat := ALTERATION |}] end, X).
Proof.
  intros [_ [_ [Hc [Hd [Hcd [Hde [_ Hdisp]]]]]]] HX. unfold scan_note_tail, acc_chars.
  pose proof (sep_stops is_note_deco X eq_refl HX) as Hstop.
  destruct (nt_core n) as [|c core'].
  - (* no accidental: the signifiers follow the pitch letters *)
    rewrite (Hcd eq_refl). cbn [app]. rewrite (take_while_app is_note_deco (nt_decos n) X Hde Hstop).
    rewrite (scan_accidental_sep X HX), (take_while_none is_note_deco X Hstop).
    cbn [add_decos]. rewrite ?app_nil_r. reflexivity.
  - (* an accidental: it stops the signifier run, the signifiers follow it *)
    rewrite <- app_assoc. rewrite (take_while_none is_note_deco ((c :: core') ++ _))
      by (destruct (core_ok_cons c core' Hc) as [[-> _]|[[->| ->] _]]; reflexivity).
    rewrite (scan_accidental_print c core' (nt_disp n) (nt_decos n ++ X) Hc Hd (after_decos _ _ X Hde HX (Hdisp ltac:(discriminate)))).
    rewrite (take_while_app is_note_deco (nt_decos n) X Hde Hstop).
    cbn [add_decos app]. rewrite ?app_nil_r, <- ?app_assoc. reflexivity.
Qed.

(* a note without duration takes over the listener's last one: duration_subtokens is kept through a chord *)
Theorem scan_note_print st n X : note_ok n -> sep_ok X ->
  scan_note st (print_note n ++ X) =
  Some (print_note n,
        {| ls_deco := add_decos (ls_deco st) (nt_decos n);
           ls_dur := match nt_dur n with Some d => mk_durs (dur_tokens d) | None => ls_dur st end |},
        match nt_dur n with Some _ => [] | None => ls_dur st end ++ note_pd n, X).
Proof.
  intros Hok HX. pose proof Hok as [Hdur [Hp _]]. pose proof (note_tail_head n X Hok HX) as HT.
  unfold scan_note. rewrite (take_while_none is_note_deco (print_note n ++ X))
    by exact (starts_stops note_start_not_deco (print_note_head n Hok)).
  unfold print_note, note_pd. rewrite <- !app_assoc.
  set (p := nt_pitch n) in *. set (T := acc_chars n ++ nt_decos n ++ X) in *.
  change (pitch_chars n ++ T) with (p :: repeat p (nt_oct n) ++ T).
  (* the pitch letters: no signifier before them, no further pitch letter after them *)
  assert (K1 : take_while is_note_deco (p :: repeat p (nt_oct n) ++ T) = ([], p :: repeat p (nt_oct n) ++ T)).
  { apply take_while_none, note_start_not_deco, pitch_start, Hp. }
  assert (K2 : take_while (Ascii.eqb p) (p :: repeat p (nt_oct n) ++ T) = (pitch_chars n, T)).
  { apply (take_while_app (Ascii.eqb p) (pitch_chars n) T); [apply forallb_repeat, Ascii.eqb_refl | exact (stops_eqb _ p T Hp HT)]. }
  destruct (nt_dur n) as [d|]; cbn [app].
  1: rewrite (scan_duration_print d p _ Hdur (pitch_ends_duration p Hp)), concat_dur_tokens, chars_of_string_of_chars.
  2: rewrite (scan_duration_none p _ (pitch_not_digit p Hp)), (pitch_not_digit p Hp).
  all: rewrite K1; cbv iota beta; rewrite Hp, K2, (stops_head _ _ HT); cbv iota beta.
  all: rewrite (scan_note_tail_print st n _ _ X Hok HX); reflexivity.
Qed.

Lemma recognise_elements {l els st} : starts note_start l ->
  scan_elements (S (List.length l)) {| ls_deco := []; ls_dur := [] |} l = Some (els, st) ->
  kern_recognise (str l) =
  let mk := fun '(text, pd) => {| nr_enc := str text; nr_pd := pd; nr_deco := ls_deco st |} in
  match els with [e] => KTok (TNoteRest (mk e)) | _ => KTok (TChord (str l) (map mk els)) end.
Proof.
  intros Hc Hs. assert (E : kern_recognise (str l) = scan_notes (str l)).
  { destruct l as [|c r]; [destruct Hc|]. unfold kern_recognise. cbn [str string_of_chars String.eqb].
    now rewrite !(class_neq note_start c _ Hc) by reflexivity. }
  rewrite E. unfold scan_notes, str. rewrite chars_of_string_of_chars, Hs. reflexivity.
Qed.

Lemma recognise_one {l st pd} : starts note_start l ->
  scan_note_or_rest {| ls_deco := []; ls_dur := [] |} l = Some (l, st, pd, []) ->
  kern_recognise (str l) = KTok (TNoteRest {| nr_enc := str l; nr_pd := pd; nr_deco := ls_deco st |}).
Proof. intros Hc Hs. apply (recognise_elements (els := [(l, pd)]) Hc). cbn [scan_elements]. now rewrite Hs. Qed.

Lemma note_or_rest_note {st l res} : scan_note st l = Some res -> scan_note_or_rest st l = Some res.
Proof. unfold scan_note_or_rest. now intros ->. Qed.

Lemma note_or_rest_rest {st l res} : scan_note st l = None -> scan_rest st l = Some res -> scan_note_or_rest st l = Some res.
Proof. unfold scan_note_or_rest. now intros ->. Qed.

(* the NoteRestToken that the canonical text of n stands for *)
Definition note_token (n : cnote) : token :=
  TNoteRest {| nr_enc := str (print_note n); nr_pd := note_pd n; nr_deco := map deco_of (nt_decos n) |}.

Theorem recognise_print_note n : note_ok n -> kern_recognise (str (print_note n)) = KTok (note_token n).
Proof.
  intros Hok. pose proof (scan_note_print {| ls_deco := []; ls_dur := [] |} n [] Hok I) as H. rewrite app_nil_r in H.
  rewrite (recognise_one (print_note_head n Hok) (note_or_rest_note H)). cbn [ls_deco ls_dur].
  rewrite add_decos_fresh by apply Hok. destruct (nt_dur n); reflexivity.
Qed.

(* non-vacuity: concrete canonical notes meet the hypotheses *)
Example note_ok_example :
  note_ok {| nt_dur := Some {| cd_num := chars_of_string "16"; cd_frac := None; cd_dots := 1; cd_grace := "q" |};
             nt_pitch := "d"; nt_oct := 1; nt_core := chars_of_string "##"; nt_disp := chars_of_string "X"; nt_decos := chars_of_string ";JL" |} /\
  str (print_note {| nt_dur := Some {| cd_num := chars_of_string "16"; cd_frac := None; cd_dots := 1; cd_grace := "q" |};
             nt_pitch := "d"; nt_oct := 1; nt_core := chars_of_string "##"; nt_disp := chars_of_string "X"; nt_decos := chars_of_string ";JL" |}) = "16.qdd##X;JL"%string.
Proof.
  split; [|reflexivity]. unfold note_ok, dur_ok. cbn. repeat split; try reflexivity; try discriminate;
    try (repeat constructor; simpl; intuition discriminate); try (intros; discriminate).
Qed.
