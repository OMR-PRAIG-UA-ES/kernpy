(* C01 / C03: the recogniser on the canonical text of a REST - the whole text is consumed and the token is exactly the
   rest: its duration marks, the rest letter and its signifiers (scan-of-print, for every well-formed rest). *)
From Coq Require Import List String Ascii Bool.
From KV Require Import Strings CatGen Token KernTok CanonProofs ScanProofs.
Import ListNotations.
Open Scope list_scope.

Record crest := { rs_dur : cdur; rs_decos : chars }.

Definition rest_ok (r : crest) : Prop :=
  dur_ok (rs_dur r) /\ forallb is_rest_deco (rs_decos r) = true /\ NoDup (rs_decos r).

Definition print_rest (r : crest) : chars := print_dur (rs_dur r) ++ "r"%char :: rs_decos r.
Definition rest_pd (r : crest) : list subtoken := mk_durs (dur_tokens (rs_dur r)) ++ [{| st_enc := "r"%string; st_cat := REST |}].
Definition rest_token (r : crest) : token :=
  TNoteRest {| nr_enc := str (print_rest r); nr_pd := rest_pd r; nr_deco := map deco_of (rs_decos r) |}.

Lemma print_rest_head r : rest_ok r -> starts note_start (print_rest r).
Proof. intros [Hdur _]. exact (starts_app digit_start (print_dur_head _ Hdur)). Qed.

Lemma digit_not_rest_deco c : is_digit c = true -> is_rest_deco c = false.
Proof.
  intros H. destruct (is_rest_deco c) eqn:E; [|reflexivity].
  apply (class_rejects is_digit rest_deco_chars) in E; [congruence|]. vm_compute. reflexivity.
Qed.

(* the note scanner declines the text of a rest (so the rest scanner gets it): r is no pitch letter *)
Lemma scan_note_rest st r : rest_ok r -> scan_note st (print_rest r) = None.
Proof.
  intros [Hdur _]. unfold scan_note, print_rest.
  rewrite (take_while_none is_note_deco (print_dur (rs_dur r) ++ _))
    by exact (starts_stops (fun c H => note_start_not_deco c (digit_start c H)) (print_dur_head _ Hdur)).
  rewrite (scan_duration_print (rs_dur r) "r" _ Hdur eq_refl). reflexivity.
Qed.

Theorem scan_rest_print r : rest_ok r ->
  scan_rest {| ls_deco := []; ls_dur := [] |} (print_rest r) =
  Some (print_rest r, {| ls_deco := map deco_of (rs_decos r); ls_dur := mk_durs (dur_tokens (rs_dur r)) |}, rest_pd r, []).
Proof.
  intros [Hdur [Hde Hnd]]. unfold scan_rest, print_rest.
  rewrite (take_while_none is_rest_deco (print_dur (rs_dur r) ++ _)) by exact (starts_stops digit_not_rest_deco (print_dur_head _ Hdur)).
  rewrite (scan_duration_print (rs_dur r) "r" _ Hdur eq_refl).
  (* after the rest letter: no second r, then the signifiers up to the end *)
  assert (Hr : scan_rest_letter ("r"%char :: rs_decos r) = Some (["r"%char], rs_decos r)).
  { destruct (rs_decos r) as [|c cs]; [reflexivity|]. simpl in Hde. apply andb_true_iff in Hde. destruct Hde as [Hc _].
    cbn [scan_rest_letter]. rewrite Ascii.eqb_refl, (class_neq is_rest_deco c "r" Hc eq_refl). reflexivity. }
  rewrite Hr, (take_while_all is_rest_deco (rs_decos r) Hde). cbn [ls_deco ls_dur add_decos].
  rewrite (add_decos_fresh _ Hnd), concat_dur_tokens, chars_of_string_of_chars. reflexivity.
Qed.

Theorem recognise_print_rest r : rest_ok r -> kern_recognise (str (print_rest r)) = KTok (rest_token r).
Proof.
  intros Hok. exact (recognise_one (print_rest_head r Hok) (note_or_rest_rest (scan_note_rest _ r Hok) (scan_rest_print r Hok))).
Qed.

Example rest_example : kern_recognise "4.r;" = KTok (rest_token {| rs_dur := {| cd_num := ["4"%char]; cd_frac := None; cd_dots := 1; cd_grace := "" |}; rs_decos := [";"%char] |}).
Proof. vm_compute. reflexivity. Qed.
