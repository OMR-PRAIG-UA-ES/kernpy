(* The state inventory of the import code (importer and the spine importers) is the one the model knows; see DESIGN.md. *)
From KV Require Import StateGen StateBase.
Lemma state_import_as_modelled : state_import = modelled_state_import.
Proof. reflexivity. Qed.
