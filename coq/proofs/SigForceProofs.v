(* C08 / C10: the signatures "in force" at a node.  Every node of an imported document carries a dictionary
   class name -> node id (SignatureNodes).  Read off TreeProofs.built for EVERY text that imports: the dictionary of a
   header or '!!' node is empty, the dictionary of any other node is its parent's, with the node itself entered under
   its class when it is a signature token.  Hence (sig_in_force) a dictionary entry is always the NEAREST signature of
   that class on the path from the node up to its header - what the excerpt preamble re-emits.
   Then the exporter's side: the signature block of an excerpt (Exporter.signature_rows), column by column. *)
From Coq Require Import List String Arith Lia.
From KV Require Import Strings Token Importer Exporter ImporterProofs TreeProofs.
Import ListNotations.
Open Scope list_scope.

(* [starts_empty] is ImporterProofs.fresh_tok, and [sigs_of t id] the n_sigs field of ImporterProofs.node_of, by conversion *)
Definition starts_empty (t : token) : bool :=
  match t with THeader _ _ => true | TSimple _ _ cls => String.eqb cls "MetacommentToken" | _ => false end.

Definition sigs_of (t : token) (id : nat) (parent_sigs : list (string * nat)) : list (string * nat) :=
  if starts_empty t then []
  else if is_signature_token t then dict_set (tok_class t) id parent_sigs else parent_sigs.

Definition sig_inv (d : doc) : Prop :=
  (n_sigs (get_node d 0) = [] /\ n_tok (get_node d 0) = None) /\
  (forall i, 0 < i -> i < List.length (d_nodes d) -> n_tok (get_node d i) <> None) /\
  forall i p t, i < List.length (d_nodes d) -> n_parent (get_node d i) = Some p -> n_tok (get_node d i) = Some t ->
    n_sigs (get_node d i) = sigs_of t i (n_sigs (get_node d p)).

Definition same_nodes_sig (d d' : doc) : Prop :=
  List.length (d_nodes d') = List.length (d_nodes d) /\
  forall i, core (get_node d' i) = core (get_node d i) /\ n_sigs (get_node d' i) = n_sigs (get_node d i).

Lemma sig_same_trans a b c : same_nodes_sig a b -> same_nodes_sig b c -> same_nodes_sig a c.
Proof.
  intros [L1 H1] [L2 H2]. split; [congruence|]. intros i. destruct (H1 i) as [A1 B1]. destruct (H2 i) as [A2 B2]. split; congruence.
Qed.

Lemma built_sig_inv d : built d -> sig_inv d.
Proof.
  intros B. destruct (built_root d B) as (R0 & _ & S0). split; [split; [exact S0 | exact R0]|]. split.
  - intros i H0 Hi. destruct (built_node d i B H0 Hi) as (st & p & t & _ & _ & Et & _). congruence.
  - intros i p t Hi Hp Ht. destruct (Nat.eq_dec i 0) as [->|H0]; [congruence|].
    destruct (built_node d i B ltac:(lia) Hi) as (st & p' & t' & _ & Ep & Et & _ & E).
    rewrite Ht in Et. rewrite Hp in Ep. injection Et as <-. injection Ep as <-. exact E.
Qed.

Theorem loads_sig_inv bad text d : loads bad text = IOk d -> sig_inv d.
Proof. intros H. exact (built_sig_inv d (loads_built bad text d H)). Qed.

Lemma lookup_dict_set cls k v l : assoc_str cls (dict_set k v l) = if String.eqb cls k then Some v else assoc_str cls l.
Proof.
  induction l as [|[k' v'] r IH]; cbn [dict_set assoc_str]; [reflexivity|].
  destruct (String.eqb k k') eqn:Ekk; cbn [assoc_str].
  - apply String.eqb_eq in Ekk. subst k'. destruct (String.eqb cls k); reflexivity.
  - destruct (String.eqb cls k') eqn:Eck'.
    + apply String.eqb_eq in Eck'. subst k'. rewrite String.eqb_sym in Ekk. rewrite Ekk. reflexivity.
    + exact IH.
Qed.

Definition is_sig_of (cls : string) (t : token) : bool :=
  negb (starts_empty t) && is_signature_token t && String.eqb cls (tok_class t).

Lemma lookup_sigs_of cls t i ps :
  assoc_str cls (sigs_of t i ps) = if starts_empty t then None else if is_sig_of cls t then Some i else assoc_str cls ps.
Proof.
  unfold sigs_of, is_sig_of. destruct (starts_empty t); [reflexivity|]. destruct (is_signature_token t); [apply lookup_dict_set | reflexivity].
Qed.

(* the walk from node i towards the root: [clear_path d cls a i] holds when a is i or an ancestor of i and no node strictly
   below a on that walk is a signature of class cls or starts an empty dictionary (header, '!!' line) *)
Inductive clear_path (d : doc) (cls : string) (a : nat) : nat -> Prop :=
| cp_self : clear_path d cls a a
| cp_up i p t : n_parent (get_node d i) = Some p -> n_tok (get_node d i) = Some t ->
                starts_empty t = false -> is_sig_of cls t = false -> clear_path d cls a p -> clear_path d cls a i.

Theorem sig_in_force d : tree_ok d -> sig_inv d -> forall i, i < List.length (d_nodes d) -> forall cls sid,
  assoc_str cls (n_sigs (get_node d i)) = Some sid ->
  clear_path d cls sid i /\ exists t, n_tok (get_node d sid) = Some t /\ is_sig_of cls t = true.
Proof.
  intros T [[R R0] [K Hd]] i. induction i as [i IH] using lt_wf_ind. intros Hi cls sid Hl.
  destruct (Nat.eq_dec i 0) as [->|H0]; [rewrite R in Hl; discriminate|].
  destruct (n_parent (get_node d i)) as [p|] eqn:Ep; [|exfalso; exact (t_hasparent d T i ltac:(lia) Hi Ep)].
  destruct (n_tok (get_node d i)) as [t|] eqn:Et; [|exfalso; exact (K i ltac:(lia) Hi Et)].
  destruct (t_parent d T i p Hi Ep) as [Hpi _].
  rewrite (Hd i p t Hi Ep Et), lookup_sigs_of in Hl.
  destruct (starts_empty t) eqn:Ese; [discriminate|]. destruct (is_sig_of cls t) eqn:Es.
  - injection Hl as <-. split; [apply cp_self | now exists t].
  - destruct (IH p Hpi ltac:(lia) cls sid Hl) as [P Q]. split; [exact (cp_up d cls sid i p t Ep Et Ese Es P) | exact Q].
Qed.

(* no hypothesis that [i] is a node: the nodes of a clear path have tokens, so they are in the store and not the root *)
Theorem sig_in_force_complete d : tree_ok d -> sig_inv d -> forall cls a i, clear_path d cls a i ->
  forall t, n_tok (get_node d a) = Some t -> is_sig_of cls t = true -> assoc_str cls (n_sigs (get_node d i)) = Some a.
Proof.
  intros T [[R R0] [K Hd]] cls a i P t Et Hs. induction P as [|i p u Ep Eu Ese Hns P IH].
  - pose proof (tok_in_range Et) as Hi. destruct (Nat.eq_dec a 0) as [->|Ha]; [congruence|].
    destruct (n_parent (get_node d a)) as [p|] eqn:Ep; [|exfalso; exact (t_hasparent d T a ltac:(lia) Hi Ep)].
    rewrite (Hd a p t Hi Ep Et), lookup_sigs_of, Hs. destruct (starts_empty t) eqn:Ese; [|reflexivity].
    unfold is_sig_of in Hs. now rewrite Ese in Hs.
  - rewrite (Hd i p u (tok_in_range Eu) Ep Eu), lookup_sigs_of, Ese, Hns. exact IH.
Qed.

Theorem loads_sig_in_force bad text d : loads bad text = IOk d -> forall i, i < List.length (d_nodes d) -> forall cls sid,
  assoc_str cls (n_sigs (get_node d i)) = Some sid <->
  (0 < sid /\ clear_path d cls sid i /\ exists t, n_tok (get_node d sid) = Some t /\ is_sig_of cls t = true).
Proof.
  intros HL i Hi cls sid. pose proof (loads_tree_ok _ _ _ HL) as T. pose proof (loads_sig_inv _ _ _ HL) as S. split.
  - intros Hl. destruct (sig_in_force d T S i Hi cls sid Hl) as [P [t [Et Hs]]]. split; [|split; [exact P | exists t; split; assumption]].
    destruct (Nat.eq_dec sid 0) as [->|H0]; [|lia]. exfalso. destruct S as [[_ R0] _]. rewrite R0 in Et. discriminate.
  - intros [_ [P [t [Et Hs]]]]. exact (sig_in_force_complete d T S cls sid i P t Et Hs).
Qed.

Fixpoint sig_column_of (d : doc) (o : opts) (fs ts id : nat) (entries : list (string * nat)) : res (list string) :=
  match entries with
  | [] => Ok []
  | kv :: r =>
    if sig_cancelled (S (ts - fs)) d (node_class d (snd kv)) id fs ts then sig_column_of d o fs ts id r
    else match export_node d o (snd kv) with
         | Err e => Err e
         | Ok c => match sig_column_of d o fs ts id r with Err e => Err e | Ok l => Ok (c :: l) end
         end
  end.
Definition sig_column (d : doc) (o : opts) (fs ts id : nat) : res (list string) :=
  sig_column_of d o fs ts id (n_sigs (get_node d id)).

(* the two folds of Exporter.signature_rows, step by step; [per_node_step] here and [step] in Section Columns are copies
   of its two lambdas (the second with the text of the exception left a variable), and signature_rows_spec meets them by
   conversion *)
Definition per_node_step (d : doc) (o : opts) (fs ts id : nat) :=
  fun (acc : res (list string)) (kv : string * nat) =>
      match acc with
      | Err e => Err e
      | Ok l =>
        let sid := snd kv in
        if sig_cancelled (S (ts - fs)) d (node_class d sid) id fs ts then Ok l
        else match export_node d o sid with Err e => Err e | Ok c => Ok (l ++ [c]) end
      end.

Lemma per_node_fold d o fs ts id : forall entries acc,
  fold_left (per_node_step d o fs ts id) entries (Ok acc) =
  match sig_column_of d o fs ts id entries with Ok l => Ok (acc ++ l) | Err e => Err e end.
Proof.
  induction entries as [|kv r IH]; intros acc; cbn [fold_left sig_column_of].
  - now rewrite app_nil_r.
  - unfold per_node_step at 2. cbv zeta. destruct (sig_cancelled _ _ _ _ _ _); [apply IH|].
    destruct (export_node d o (snd kv)) as [c|e]; [|now apply fold_left_stuck].
    rewrite IH. destruct (sig_column_of d o fs ts id r) as [l|e]; [|reflexivity]. now rewrite <- app_assoc.
Qed.

(* a column = the exports of the node's dictionary entries, in dictionary order, minus those replaced by a new signature
   of the same class before the first note of the excerpt *)
Lemma sig_column_spec d o fs ts id : forall entries l, sig_column_of d o fs ts id entries = Ok l ->
  Forall2 (fun c kv => export_node d o (snd kv) = Ok c) l
          (filter (fun kv => negb (sig_cancelled (S (ts - fs)) d (node_class d (snd kv)) id fs ts)) entries).
Proof.
  induction entries as [|kv r IH]; intros l; cbn [sig_column_of filter].
  - intros H. injection H as <-. constructor.
  - destruct (sig_cancelled _ _ _ _ _ _); cbn [negb]; [apply IH|].
    destruct (export_node d o (snd kv)) as [c|e] eqn:Ec; [|discriminate].
    destruct (sig_column_of d o fs ts id r) as [l'|e]; [|discriminate].
    intros H. injection H as <-. constructor; [exact Ec | apply IH; reflexivity].
Qed.

Definition nonempty {A} (l : list A) : bool := match l with [] => false | _ => true end.

Definition level (cs : list (list string)) : Prop := forall c, In c cs -> List.length c = List.length (hd [] cs).

(* the fold over the nodes of the stage, for any way [col] of making a node's column: the non-empty columns are kept in
   order, and all of them must be as high as the first ([level]) *)
Section Columns.
  Variables (col : nat -> res (list string)) (mismatch : string).
  Let step (acc : res (list (list string))) id :=
    match acc with
    | Err e => Err e
    | Ok cs =>
      match col id with
      | Err e => Err e
      | Ok [] => Ok cs
      | Ok l => match cs with
                | [] => Ok [l]
                | c0 :: _ => if Nat.eqb (List.length c0) (List.length l) then Ok (cs ++ [l]) else Err mismatch
                end
      end
    end.

  Lemma cols_step cs id cs' : step (Ok cs) id = Ok cs' -> level cs ->
    exists c, col id = Ok c /\ cs' = cs ++ filter nonempty [c] /\ level cs'.
  Proof.
    unfold step. destruct (col id) as [c|e]; [|discriminate]. intros H L. exists c. split; [reflexivity|].
    destruct c as [|x c]; [injection H as <-; now rewrite app_nil_r|]. cbn [filter nonempty].
    destruct cs as [|c0 cs0]; [injection H as <-; split; [reflexivity | now intros c' [<-|[]]]|].
    destruct (Nat.eqb_spec (List.length c0) (List.length (x :: c))) as [En|]; [|discriminate]. injection H as <-. split; [reflexivity|].
    intros c' Hc. apply (in_app_or (c0 :: cs0)) in Hc. destruct Hc as [Hc|[<-|[]]]; [exact (L c' Hc) | symmetry; exact En].
  Qed.

  Lemma cols_fold : forall ids cs cs', fold_left step ids (Ok cs) = Ok cs' -> level cs ->
    exists cols, Forall2 (fun id c => col id = Ok c) ids cols /\ cs' = cs ++ filter nonempty cols /\ level cs'.
  Proof.
    induction ids as [|id r IH]; intros cs cs'; cbn [fold_left].
    - intros H L. injection H as <-. exists []. split; [constructor|]. split; [now rewrite app_nil_r | exact L].
    - destruct (step (Ok cs) id) as [cs1|e] eqn:E1; [|rewrite fold_left_stuck by reflexivity; discriminate].
      intros H L. destruct (cols_step _ _ _ E1 L) as (c & Ec & -> & L1). destruct (IH _ _ H L1) as (cols & F & -> & L').
      exists (c :: cols). split; [now constructor|]. split; [|exact L']. rewrite <- app_assoc. f_equal. symmetry. apply (filter_app _ [c]).
  Qed.
End Columns.

Theorem signature_rows_spec d o fs ts rows : signature_rows d o fs ts = Ok rows ->
  exists cols, Forall2 (fun id col => sig_column d o fs ts id = Ok col) (nth fs (d_stages d) []) cols /\
    let kept := filter nonempty cols in
    (forall c, In c kept -> List.length c = List.length (hd [] kept)) /\
    rows = map (fun irow => map (fun col => nth irow col ""%string) kept) (seq 0 (List.length (hd [] kept))).
Proof.
  unfold signature_rows. set (per_node := fun id => fold_left (per_node_step d o fs ts id) (n_sigs (get_node d id)) (Ok [])).
  assert (Ep : forall id, per_node id = sig_column d o fs ts id).
  { intros id. unfold per_node, sig_column. rewrite per_node_fold. cbn [app]. now destruct (sig_column_of _ _ _ _ _ _). }
  destruct (fold_left _ (nth fs (d_stages d) []) (Ok [])) as [cs|e] eqn:Ef; [|discriminate].
  (* the fold is [cols_fold]'s, for the column function [per_node] *)
  destruct (cols_fold per_node _ _ _ _ Ef) as [cols [F [E L]]]; [intros c []|].
  cbn [app] in E. intros HH. exists cols. split; [|cbv zeta; rewrite <- E; split; [exact L|]].
  - apply (Forall2_impl _ _ (fun id c H => eq_trans (eq_sym (Ep id)) H) _ _ F).
  - destruct cs as [|c0 cs0]; injection HH as <-; reflexivity.
Qed.

Corollary signature_block d o fs ts rows : signature_rows d o fs ts = Ok rows ->
  exists cols,
    Forall2 (fun id col => sig_column d o fs ts id = Ok col /\
        Forall2 (fun c kv => export_node d o (snd kv) = Ok c) col
          (filter (fun kv => negb (sig_cancelled (S (ts - fs)) d (node_class d (snd kv)) id fs ts)) (n_sigs (get_node d id))))
      (nth fs (d_stages d) []) cols /\
    let kept := filter nonempty cols in
    (forall c, In c kept -> List.length c = List.length (hd [] kept)) /\
    rows = map (fun irow => map (fun col => nth irow col ""%string) kept) (seq 0 (List.length (hd [] kept))).
Proof.
  intros H. destruct (signature_rows_spec d o fs ts rows H) as [cols [F R]]. exists cols. split; [|exact R].
  apply (Forall2_impl _ _ (fun id col Hc => conj Hc (sig_column_spec d o fs ts id _ _ Hc)) _ _ F).
Qed.
