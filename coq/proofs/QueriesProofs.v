(* Proofs for C17 over the model of the document queries (model/Queries.v; any document, any number of nodes): the category
   filter keeps a sub-listing, the unique listing has no repeated text and the same texts, the frequency table counts every
   listed token once and has the listed texts as keys, a key restricts the metacomments to those that begin with it. *)
From Coq Require Import List String Lia.
From KV Require Import Strings CatGen Cat CatProofs Token Importer Queries.
Import ListNotations.
Open Scope list_scope.

Definition full_listing (d : doc) : list token := node_tokens d (dfs_order d).

Lemma all_tokens_unfiltered d : get_all_tokens d None = full_listing d.
Proof. apply filter_all. intros t _. apply mem_In, valid_none_none. Qed.

Theorem filtered_is_subsequence d f :
  get_all_tokens d (Some f) = filter (fun t => mem (tok_cat t) (valid (Some f) None)) (get_all_tokens d None).
Proof. rewrite all_tokens_unfiltered. reflexivity. Qed.

Theorem filtered_membership d f t :
  In t (get_all_tokens d (Some f)) <-> In t (full_listing d) /\ exists a, In a f /\ desc a (tok_cat t).
Proof.
  rewrite filtered_is_subsequence, all_tokens_unfiltered, filter_In, mem_In, valid_none_exclude. tauto.
Qed.

Lemma first_occ_spec : forall l seen e,
  In e (map tok_enc (first_occurrences seen l)) <-> In e (map tok_enc l) /\ ~ In e seen.
Proof.
  induction l as [|t l IH]; intros seen e; simpl; [tauto|].
  destruct (mem_str (tok_enc t) seen) eqn:E.
  - apply mem_str_In in E. rewrite IH. split; [tauto|]. intros [[<-|H] Hn]; [contradiction | auto].
  - apply mem_str_false in E. simpl. rewrite IH. simpl. split.
    + intros [<- | [H1 H2]]; auto.
    + intros [[H|H] Hn]; [auto|]. destruct (string_dec (tok_enc t) e) as [Heq|Hne]; [auto|].
      right. split; [exact H|]. intros [H3|H3]; contradiction.
Qed.

Lemma first_occ_nodup : forall l seen, NoDup (map tok_enc (first_occurrences seen l)).
Proof.
  induction l as [|t l IH]; intros seen; simpl; [constructor|].
  destruct (mem_str (tok_enc t) seen); [apply IH|]. simpl. constructor; [|apply IH].
  rewrite first_occ_spec. simpl. tauto.
Qed.

Theorem unique_no_repeats d f : NoDup (map tok_enc (get_unique_tokens d f)).
Proof. apply first_occ_nodup. Qed.

Theorem unique_same_encodings d f e :
  In e (map tok_enc (get_unique_tokens d f)) <-> In e (map tok_enc (get_all_tokens d f)).
Proof. unfold get_unique_tokens. rewrite first_occ_spec. simpl. tauto. Qed.

Lemma first_occ_head t l : first_occurrences [] (t :: l) = t :: first_occurrences [tok_enc t] l.
Proof. reflexivity. Qed.

Definition total (fr : list (string * (nat * cat))) : nat := fold_right (fun e acc => fst (snd e) + acc) 0 fr.

Lemma total_freq_add e c fr : total (freq_add e c fr) = S (total fr).
Proof.
  induction fr as [|[e' [n c']] fr IH]; simpl; [reflexivity|].
  destruct (String.eqb e e'); simpl; [lia | rewrite IH; lia].
Qed.

Lemma total_fold l : forall fr, total (fold_left (fun acc t => freq_add (tok_enc t) (tok_cat t) acc) l fr) = List.length l + total fr.
Proof.
  induction l as [|t l IH]; intros fr; simpl; [reflexivity|]. rewrite IH, total_freq_add. lia.
Qed.

Theorem frequencies_sum d f : total (frequencies d f) = List.length (get_all_tokens d f).
Proof. unfold frequencies. rewrite total_fold. simpl. lia. Qed.

Lemma freq_add_keys e c fr k : In k (map fst (freq_add e c fr)) <-> e = k \/ In k (map fst fr).
Proof.
  induction fr as [|[e' [n c']] fr IH]; simpl; [reflexivity|].
  destruct (String.eqb e e') eqn:E; simpl; [|rewrite IH; split; intros [H|[H|H]]; auto].
  apply String.eqb_eq in E. subst. split; [auto | intros [H|H]; auto].
Qed.

Theorem frequencies_keys d f k : In k (map fst (frequencies d f)) <-> In k (map tok_enc (get_all_tokens d f)).
Proof.
  unfold frequencies. generalize (get_all_tokens d f) as l. intros l.
  assert (G : forall fr, In k (map fst (fold_left (fun acc t => freq_add (tok_enc t) (tok_cat t) acc) l fr))
                        <-> In k (map tok_enc l) \/ In k (map fst fr)).
  { induction l as [|t l IH]; intros fr; simpl; [tauto|]. rewrite IH, freq_add_keys. tauto. }
  rewrite G. simpl. tauto.
Qed.

Theorem metacomments_key d k c : In c (get_metacomments d (Some k) false) -> startswith ("!!!" ++ k) c = true.
Proof.
  unfold get_metacomments. rewrite in_flat_map. intros [t [_ H]].
  destruct (startswith ("!!!" ++ k) (tok_enc t)) eqn:E; simpl in H; [destruct H as [<-|[]]; exact E | contradiction].
Qed.
