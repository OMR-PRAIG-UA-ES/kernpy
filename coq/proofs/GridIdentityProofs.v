(* C01 / C03 at DOCUMENT level for ANY spine structure (several spines, splits, joins, early ends, comments): when every
   cell of the text is in normal form under the header that governs it - it is the export of its own token - the default
   export of the imported document is the source grid itself, minus the '!!' lines: export o import = identity, hence
   export o import o export = export.  A null cell ("." or "*") is not in normal form (SingleSpineProofs.good wants a cell
   that is not nullish), so under this hypothesis [keep_row], which also drops the all-null lines, drops the '!!' lines only. *)
From Coq Require Import List String Bool.
From KV Require Import Strings CatGen OptGen Token Tokenizers Importer Exporter
  TreeProofs ImporterProofs HeaderSelfProofs GridTokensProofs ExporterProofs SingleSpineProofs.
Import ListNotations.
Open Scope list_scope.

(* the cell [c], standing in a spine whose header text is [h], is the export of its own token *)
Definition normal_under (bad : list string) (h c : string) : Prop :=
  if startswith "**" c then mem_str c headers = true
  else if mem_str c spine_operations then True
  else if startswith "!" c then strip_separators c = c
  else exists t, import_cell bad h c = RTok t /\ good t c.

(* the spine headers and the spine operators are exported as they stand: two tables *)
Lemma verbatim_table (f : string -> string) l :
  forallb (fun c => String.eqb (strip_separators (f c)) c && negb (mem_str c nullish_tokens)) l = true ->
  forall c, mem_str c l = true -> strip_separators (f c) = c /\ mem_str c nullish_tokens = false.
Proof.
  intros H c Hc. rewrite forallb_forall in H. specialize (H c (proj1 (mem_str_In _ _) Hc)). apply andb_true_iff in H.
  destruct H as [H1 H2]. split; [now apply String.eqb_eq | now apply negb_true_iff].
Qed.

Lemma headers_verbatim : forall c, mem_str c headers = true ->
  strip_separators ("**" ++ drop 2 c) = c /\ mem_str c nullish_tokens = false.
Proof. apply (verbatim_table (fun c => "**" ++ drop 2 c)%string). vm_compute. reflexivity. Qed.

Lemma ops_verbatim : forall c, mem_str c spine_operations = true -> strip_separators c = c /\ mem_str c nullish_tokens = false.
Proof. apply (verbatim_table (fun c => c)). vm_compute. reflexivity. Qed.

Lemma cell_out bad d r id c : built d -> cell_rel bad d r id c -> hashdr d id ->
  (forall hid, n_header (get_node d id) = Some hid -> mem_str (header_text d hid) headers = true /\ normal_under bad (header_text d hid) c) ->
  append_row d default_opts id = Ok (Some c).
Proof.
  intros B (t & Et & R) Hh Hn. pose proof (tok_in_range Et) as Hid.
  pose proof (built_hdr_ok d B) as Hd. pose proof (built_hself d B) as Hs.
  destruct (n_header (get_node d id)) as [hid|] eqn:Ehid; [|now destruct Hh]. destruct (Hn hid eq_refl) as [Hsup Hnorm].
  assert (Hsel : spine_selected default_opts (header_type d id) = true).
  { rewrite (header_type_by_header d id Hs), Ehid. destruct (Hd id hid Hid Ehid) as (_ & (e & sp & Eth & _) & _).
    unfold header_text in Hsup. rewrite Eth in Hsup |- *. unfold spine_selected. cbn [tok_enc default_opts o_types o_ids] in *. now rewrite Hsup. }
  rewrite (append_row_tok d default_opts id t Et Hsel clef_free_kern).
  enough (E : tok_cell default_opts t = Ok c) by now rewrite E.
  unfold normal_under in Hnorm. destruct (startswith "**" c).
  - destruct R as [[col ->] _]. destruct (headers_verbatim c Hnorm) as [E Hnn].
    change (tok_cell default_opts (THeader c col))
      with (Ok (if String.eqb (strip_separators ("**" ++ drop 2 c)) "" then "."%string else strip_separators ("**" ++ drop 2 c))).
    rewrite E. now destruct c.
  - enough (G : good t c) by (rewrite (tok_cell_plain _ _ (proj1 G)); exact (good_cell t c G)).
    destruct (mem_str c spine_operations) eqn:E2; [|destruct (startswith "!" c) eqn:E3]; subst.
    + now apply good_simple; apply ops_verbatim.
    + apply good_simple; [exact Hnorm|]. destruct c as [|x c]; [discriminate|]. cbn [startswith] in E3.
      apply andb_true_iff in E3. destruct E3 as [E3 _]. apply Ascii.eqb_eq in E3. now subst x.
    + destruct R as (hid' & [= <-] & R), Hnorm as (t' & Ei & G). rewrite Ei in R. now subst t'.
Qed.

(* a '!!' line exports nothing *)
Definition is_meta_row (row : list string) : bool := startswith "!!" (hd ""%string row).
Definition row_text (row : list string) : list string := if is_meta_row row then [] else row.

Definition row_normal (bad : list string) (d : doc) (ids : list nat) (row : list string) : Prop :=
  is_meta_row row = true \/
  Forall2 (fun id c => forall hid, n_header (get_node d id) = Some hid ->
                       mem_str (header_text d hid) headers = true /\ normal_under bad (header_text d hid) c) ids row.

Lemma row_out bad d r ids row : built d ->
  row_rel bad d r ids row -> row_normal bad d ids row -> row_of_stage d default_opts ids = Ok (row_text row).
Proof.
  intros B R N. unfold row_rel in R. unfold row_normal in N. unfold row_text, is_meta_row in *.
  destruct row as [|first rest]; [contradiction|]. cbn [hd] in *. destruct (startswith "!!" first).
  - destruct R as (id & -> & Et & Eh). now rewrite (row_no_header _ _ _ [] Eh) by (now rewrite Et).
  - destruct N as [N|N]; [discriminate|]. destruct R as [F Hh]. revert Hh N.
    induction F as [|id c ids row Rc F IH]; intros Hh N; [reflexivity|]. inversion N; inversion Hh; subst.
    cbn [row_of_stage]. now rewrite (cell_out bad d r id c), IH.
Qed.

Definition keep_row (xs : list string) : bool := match xs with [] => false | _ => negb (all_nullish xs) end.

(* a length mismatch gives True: [rows_normal] stands next to [rows_rel], which rules it out *)
Fixpoint rows_normal (bad : list string) (d : doc) (sts : list (list nat)) (rows : list (list string)) : Prop :=
  match sts, rows with
  | ids :: sts', row :: rows' => row_normal bad d ids row /\ rows_normal bad d sts' rows'
  | _, _ => True
  end.

Lemma rows_out bad d : built d -> forall sts rows k, rows_rel bad d k sts rows -> rows_normal bad d sts rows ->
  Forall2 (fun ids xs => row_of_stage d default_opts ids = Ok xs) sts (map row_text rows).
Proof.
  intros B. induction sts as [|ids sts IH]; intros rows k R N; destruct rows as [|row rows]; cbn [rows_rel] in R; try contradiction; [constructor|].
  destruct R as [R1 R2]. destruct N as [N1 N2]. cbn [map]. constructor.
  - eapply row_out; eassumption.
  - eapply IH; eassumption.
Qed.

(* the export argument reads the document only: any document that holds a grid of normal cells (one that is loaded from a
   text or from a file, or neither) exports that grid *)
Theorem export_of_normal_grid bad d k sts rows : built d ->
  d_stages d = [0] :: sts -> rows_rel bad d k sts rows -> rows_normal bad d sts rows ->
  export_rows d default_opts = Ok (filter keep_row (map row_text rows)).
Proof.
  (* [keep_row] is ExporterProofs.kept_row, word for word *)
  intros B Est R N. destruct (built_root d B) as (R0 & H0 & _).
  exact (export_rows_stages d default_opts sts _ eq_refl eq_refl Est R0 H0 (rows_out bad d B sts _ k R N)).
Qed.

Theorem export_of_normal_document bad text d : loads bad text = IOk d ->
  forall sts, d_stages d = [0] :: sts ->
  rows_normal bad d sts (filter nonempty_row (rows_of_text text)) ->
  export_rows d default_opts = Ok (filter keep_row (map row_text (filter nonempty_row (rows_of_text text)))).
Proof.
  intros HL sts Est N. destruct (loads_grid bad text d HL) as (sts' & E1 & R). rewrite Est in E1. injection E1 as <-.
  exact (export_of_normal_grid bad d _ sts _ (loads_built bad text d HL) Est R N).
Qed.

Example normal_document_example :
  let text := "**kern	**kern
*clefG2	*clefF4
=	=
4c;L	2.r
*^	*
8.dd#	4e	4C 4E
*v	*v	*
==	==
*-	*-
"%string in
  match loads [] text with
  | IOk d => export_rows d default_opts = Ok (filter keep_row (map row_text (filter nonempty_row (rows_of_text text))))
  | _ => False
  end.
Proof.
  (* both sides read the lines of the text, by far the dearest step for a checker that evaluates without the virtual
     machine (the line reader tests every character against unary byte numbers): named once, they are read once *)
  intros text. unfold loads. set (rows := rows_of_text text). vm_compute. reflexivity.
Qed.
