(* The two line readers of the importer (C20, C02).  Reading a file (open(newline='') + csv) and reading its text
   (str.splitlines + csv) split into the same lines and cells, for every byte string that holds none of the extra
   separators that only str.splitlines knows (VT, FF, FS, GS, RS, NEL = C2 85, LS/PS = E2 80 A8/A9); both take cell
   text literally; and every line either of them produces is free of LF and CR, whatever the input.
   [readers_as_modelled] is the obligation, regenerated from the source, that import_string and import_file still
   configure their readers as [row_of_line] and the two line splitters assume. *)
From Coq Require Import List String Ascii Bool Arith Lia.
From KV Require Import Strings Importer StringProofs ReaderGen.
Import ListNotations.
Open Scope list_scope.

(* no extra separator anywhere in the byte list *)
Fixpoint plain (l : list ascii) : bool :=
  match l with
  | [] => true
  | c :: r =>
    negb (is_byte 11 c || is_byte 12 c || is_byte 28 c || is_byte 29 c || is_byte 30 c)
    && (match r with
        | d :: r' => negb (is_byte 194 c && is_byte 133 d)
                     && (match r' with e :: _ => negb (is_byte 226 c && is_byte 128 d && (is_byte 168 e || is_byte 169 e)) | [] => true end)
        | [] => true
        end)
    && plain r
  end.

Definition tab : ascii := byte 9.
Definition lf : ascii := byte 10.
Definition cr : ascii := byte 13.

Lemma is_byte_eqb b c : is_byte (nat_of_ascii b) c = Ascii.eqb c b.
Proof.
  unfold is_byte. destruct (Ascii.eqb_spec c b) as [->|Hne]; [apply Nat.eqb_refl|].
  apply Nat.eqb_neq. intros H. apply Hne. now rewrite <- (ascii_nat_embedding c), H, ascii_nat_embedding.
Qed.

(* a line: no LF, no CR *)
Definition line_ok (l : string) : bool := avoids lf l && avoids cr l.

Lemma line_ok_app a b : line_ok (a ++ b) = line_ok a && line_ok b.
Proof. unfold line_ok. rewrite !avoids_app. destruct (avoids lf a), (avoids lf b), (avoids cr a); reflexivity. Qed.

Lemma line_ok_cons c a : line_ok (String c a) = negb (is_byte 10 c) && negb (is_byte 13 c) && line_ok a.
Proof.
  unfold line_ok. cbn [avoids]. rewrite (is_byte_eqb lf c : is_byte 10 c = _), (is_byte_eqb cr c : is_byte 13 c = _).
  now destruct (Ascii.eqb c lf), (Ascii.eqb c cr), (avoids lf a).
Qed.

Lemma line_ok_push c cur : is_byte 13 c = false -> is_byte 10 c = false ->
  line_ok (string_of_chars (rev cur)) = true -> line_ok (string_of_chars (rev (c :: cur))) = true.
Proof.
  intros E13 E10 H. cbn [rev]. rewrite string_of_chars_app, line_ok_app, H. cbn [string_of_chars]. now rewrite line_ok_cons, E13, E10.
Qed.

(* The line ends that only str.splitlines knows, as tests on their bytes: five single bytes, a pair c2 x85 and a triple
   e2 x80 xa8|xa9.  Which bytes they are plays no part in what follows, so the tests are variables, and splitlines_aux
   and plain are written once more over them: Importer.splitlines_aux and plain are splitlines_by and plain_by at the
   bytes of VT FF FS GS RS, C2 85 and E2 80 A8/A9 (by computation: `apply` finds the tests when it unifies the bodies),
   and Importer.filelines_aux is splitlines_by at tests that never hold.  The model writes a byte as a unary numeral:
   a goal that shows the body of splitlines_aux shows some 1200 successors, and every case analysis on it pays for
   each of them; here it shows none above 13. *)
Section Extra.
Variables vt ff fs gs rs c2 x85 e2 x80 xa8 xa9 : ascii -> bool.

Fixpoint splitlines_by (l cur : list ascii) : list string :=
  match l with
  | [] => match cur with [] => [] | _ => [string_of_chars (rev cur)] end
  | c :: r =>
    let flush := string_of_chars (rev cur) in
    if is_byte 13 c then
      match r with
      | d :: r' => if is_byte 10 d then flush :: splitlines_by r' [] else flush :: splitlines_by r []
      | [] => [flush]
      end
    else if is_byte 10 c || vt c || ff c || fs c || gs c || rs c
    then flush :: splitlines_by r []
    else if c2 c then
      match r with
      | d :: r' => if x85 d then flush :: splitlines_by r' [] else splitlines_by r (c :: cur)
      | [] => splitlines_by r (c :: cur)
      end
    else if e2 c then
      match r with
      | d :: e :: r' => if x80 d && (xa8 e || xa9 e) then flush :: splitlines_by r' []
                        else splitlines_by r (c :: cur)
      | _ => splitlines_by r (c :: cur)
      end
    else splitlines_by r (c :: cur)
  end.

Fixpoint plain_by (l : list ascii) : bool :=
  match l with
  | [] => true
  | c :: r =>
    negb (vt c || ff c || fs c || gs c || rs c)
    && (match r with
        | d :: r' => negb (c2 c && x85 d)
                     && (match r' with e :: _ => negb (e2 c && x80 d && (xa8 e || xa9 e)) | [] => true end)
        | [] => true
        end)
    && plain_by r
  end.

Lemma plain_by_tail c r : plain_by (c :: r) = true -> plain_by r = true.
Proof. cbn [plain_by]. intros H. apply andb_true_iff in H. apply H. Qed.

(* Both readers restart, after a line end of one, two or three bytes, on the list behind it: the induction is on the
   length of the input.  On plain input the tests of splitlines_by that filelines_aux does not make all fail. *)
Theorem splitlines_by_plain : forall l cur, plain_by l = true -> splitlines_by l cur = filelines_aux l cur.
Proof.
  induction l as [l IH] using (induction_ltof1 _ (@List.length ascii)). unfold ltof in IH.
  intros cur Hp. destruct l as [|c r]; [reflexivity|].
  assert (Hr := plain_by_tail _ _ Hp).
  assert (P : splitlines_by r (c :: cur) = filelines_aux r (c :: cur)) by (apply IH; [cbn; lia | exact Hr]).
  cbn [splitlines_by filelines_aux].
  case (is_byte 13 c).
  { destruct r as [|d r']; [reflexivity|].
    case (is_byte 10 d); f_equal; apply IH; cbn; try lia; [exact (plain_by_tail _ _ Hr) | exact Hr]. }
  case (is_byte 10 c); cbn [orb].
  { f_equal. apply IH; [cbn; lia | exact Hr]. }
  rewrite <- P. revert Hp. cbn [plain_by].
  case (vt c || ff c || fs c || gs c || rs c); [discriminate|].
  case (c2 c).
  { destruct r as [|d r']; [reflexivity|]. case (x85 d); [discriminate | reflexivity]. }
  case (e2 c); [|reflexivity].
  destruct r as [|d [|e r']]; try reflexivity.
  cbn [andb]. case (x80 d && (xa8 e || xa9 e)); [discriminate | reflexivity].
Qed.

(* a line is flushed only from an accumulator of pushed bytes, and a byte is pushed only after the tests for CR and LF
   have failed *)
Lemma splitlines_by_clean : forall l cur, line_ok (string_of_chars (rev cur)) = true ->
  forallb line_ok (splitlines_by l cur) = true.
Proof.
  induction l as [l IH] using (induction_ltof1 _ (@List.length ascii)). unfold ltof in IH. intros cur Hc.
  assert (R : forall r, List.length r < List.length l ->
              forallb line_ok (string_of_chars (rev cur) :: splitlines_by r []) = true).
  { intros r Hr. cbn [forallb]. rewrite Hc. now apply IH. }
  destruct l as [|c r]; cbn [splitlines_by]; [destruct cur; [reflexivity | cbn [forallb]; now rewrite Hc]|].
  cbn [List.length] in R. destruct (is_byte 13 c) eqn:E13.
  { destruct r as [|d r']; [apply (R []); lia|]. case (is_byte 10 d); apply R; cbn; lia. }
  destruct (is_byte 10 c) eqn:E10; [apply R; lia|].
  assert (P : forallb line_ok (splitlines_by r (c :: cur)) = true) by (apply IH; [cbn; lia | now apply line_ok_push]).
  cbn [orb]. case (_ || _); [apply R; lia|].
  case (c2 c).
  { destruct r as [|d r']; [exact P|]. case (x85 d); [apply R; cbn; lia | exact P]. }
  case (e2 c); [|exact P].
  destruct r as [|d [|e r']]; try exact P. case (_ && _); [apply R; cbn; lia | exact P].
Qed.
End Extra.

Theorem same_lines : forall l cur, plain l = true -> splitlines_aux l cur = filelines_aux l cur.
Proof. apply splitlines_by_plain. Qed.

Lemma splitlines_aux_clean : forall l cur, line_ok (string_of_chars (rev cur)) = true ->
  forallb line_ok (splitlines_aux l cur) = true.
Proof. apply splitlines_by_clean. Qed.

Definition never (_ : ascii) : bool := false.

Lemma filelines_aux_by l cur :
  filelines_aux l cur = splitlines_by never never never never never never never never never never never l cur.
Proof.
  symmetry. apply splitlines_by_plain. induction l as [|c r IH]; [reflexivity|].
  cbn [plain_by]. rewrite IH. now destruct r as [|d [|e r']].
Qed.

Lemma filelines_aux_clean l cur : line_ok (string_of_chars (rev cur)) = true -> forallb line_ok (filelines_aux l cur) = true.
Proof. rewrite filelines_aux_by. apply splitlines_by_clean. Qed.

Theorem file_equals_text s : plain (chars_of_string s) = true -> rows_of_file s = rows_of_text s.
Proof. intros H. unfold rows_of_file, rows_of_text, filelines, splitlines. now rewrite same_lines. Qed.

Theorem load_equals_loads bad s : plain (chars_of_string s) = true -> load_file bad s = loads bad s.
Proof. intros H. unfold load_file, loads. now rewrite (file_equals_text s H). Qed.

Example line_end_examples :
  let nl := String (ascii_of_nat 10) "" in let cr := String (ascii_of_nat 13) "" in
  rows_of_text ("a" ++ nl ++ "b")%string = rows_of_text ("a" ++ cr ++ nl ++ "b" ++ cr ++ nl)%string /\
  rows_of_text ("a" ++ cr ++ "b")%string = rows_of_file ("a" ++ nl ++ "b" ++ nl)%string.
Proof. vm_compute. split; reflexivity. Qed.

(* the exotic separators do split the text but not the file: finding K9, witness *)
Example k9_refuted : let ff := String (ascii_of_nat 12) "" in rows_of_text ("a" ++ ff ++ "b")%string <> rows_of_file ("a" ++ ff ++ "b")%string.
Proof. vm_compute. discriminate. Qed.

(* the reader configuration this model stands for, as read from Importer.import_string / import_file by the translator *)
Definition modelled_reader_args : list (string * string) := [("delimiter", "'\t'"); ("quoting", "csv.QUOTE_NONE")]%string.
Definition pair_mem (kv : string * string) (l : list (string * string)) : bool :=
  existsb (fun x => String.eqb (fst x) (fst kv) && String.eqb (snd x) (snd kv)) l.
Definition same_args (a b : list (string * string)) : bool :=
  forallb (fun kv => pair_mem kv b) a && forallb (fun kv => pair_mem kv a) b.

Lemma readers_as_modelled :
  text_lines_expr = "text.splitlines()"%string /\ same_args text_reader_args modelled_reader_args = true /\
  same_args file_reader_args modelled_reader_args = true /\ assoc_str "newline" file_open_args = Some "''"%string.
Proof. repeat split; reflexivity. Qed.

Lemma filelines_aux_prefix : forall a rest cur, line_ok a = true ->
  filelines_aux (chars_of_string a ++ rest) cur = filelines_aux rest (rev (chars_of_string a) ++ cur).
Proof.
  induction a as [|c a IH]; intros rest cur H; [reflexivity|].
  rewrite line_ok_cons in H. apply andb_true_iff in H as [Hc Ha]. apply andb_true_iff in Hc as [E10 E13].
  apply negb_true_iff in E10, E13.
  cbn [chars_of_string app filelines_aux rev]. rewrite E13, E10, (IH rest (c :: cur) Ha). now rewrite <- app_assoc.
Qed.

(* lines each followed by the end-of-line sequence [eol] *)
Fixpoint unlines (eol : string) (lines : list string) : string :=
  match lines with [] => ""%string | l :: r => (l ++ eol ++ unlines eol r)%string end.

Lemma filelines_aux_line eol a s : eol = String lf "" \/ eol = String cr (String lf "") -> line_ok a = true ->
  filelines_aux (chars_of_string (a ++ eol ++ s)) [] = a :: filelines_aux (chars_of_string s) [].
Proof.
  intros He Ha. rewrite chars_of_string_app, (filelines_aux_prefix a _ [] Ha), app_nil_r.
  transitivity (string_of_chars (rev (rev (chars_of_string a))) :: filelines_aux (chars_of_string s) []).
  - destruct He as [-> | ->]; reflexivity.
  - now rewrite rev_involutive, string_of_chars_of_string.
Qed.

(* a row: cells free of tab / LF / CR whose joined text is not empty (csv yields [] for an empty line) *)
Definition cell_ok (c : string) : bool := avoids tab c && avoids lf c && avoids cr c.
Definition row_ok (row : list string) : bool := forallb cell_ok row && negb (String.eqb (join (String tab "") row) "").

Lemma cell_ok_avoids c : cell_ok c = true -> avoids tab c = true /\ line_ok c = true.
Proof. unfold cell_ok, line_ok. rewrite <- andb_assoc. apply andb_true_iff. Qed.

Lemma line_ok_join row : forallb line_ok row = true -> line_ok (join (String tab "") row) = true.
Proof.
  intros H. unfold line_ok. rewrite !avoids_join; try reflexivity; revert H; apply forallb_impl; intros c Hc;
    apply andb_true_iff in Hc; apply Hc.
Qed.

Lemma row_of_line_join row : row_ok row = true -> row_of_line (join (String tab "") row) = row /\ line_ok (join (String tab "") row) = true.
Proof.
  unfold row_ok. intros H. apply andb_true_iff in H as [Hc Hne]. apply negb_true_iff in Hne. split.
  - unfold row_of_line. destruct (join (String tab "") row) eqn:E; [discriminate|]. rewrite <- E.
    apply (split_join_char tab row); [intros ->; discriminate|].
    revert Hc. apply forallb_impl. intros c. apply cell_ok_avoids.
  - apply line_ok_join. revert Hc. apply forallb_impl. intros c. apply cell_ok_avoids.
Qed.

Theorem file_grid_literal eol grid : eol = String lf "" \/ eol = String cr (String lf "") -> forallb row_ok grid = true ->
  rows_of_file (unlines eol (map (join (String tab "")) grid)) = grid.
Proof.
  intros He. unfold rows_of_file, filelines. induction grid as [|row grid IH]; intros H; [reflexivity|].
  cbn [forallb] in H. apply andb_true_iff in H. destruct H as [Hr Hg]. destruct (row_of_line_join row Hr) as [E L].
  cbn [map unlines]. rewrite (filelines_aux_line eol _ _ He L). cbn [map]. now rewrite E, (IH Hg).
Qed.

Corollary text_grid_literal eol grid : eol = String lf "" \/ eol = String cr (String lf "") -> forallb row_ok grid = true ->
  plain (chars_of_string (unlines eol (map (join (String tab "")) grid))) = true ->
  rows_of_text (unlines eol (map (join (String tab "")) grid)) = grid.
Proof. intros He H Hp. rewrite <- (file_equals_text _ Hp). apply file_grid_literal; assumption. Qed.

Example literal_cells_example :
  let q := String (ascii_of_nat 34) "" in
  rows_of_file (unlines (String lf "") (map (join (String tab "")) [["**kern"; "**text"]; ["4c"; q ++ "Ach,"]; ["4d"; "nein" ++ q]; ["*-"; "*-"]]))%string
  = [["**kern"; "**text"]; ["4c"; q ++ "Ach,"]; ["4d"; "nein" ++ q]; ["*-"; "*-"]]%string.
Proof. vm_compute. reflexivity. Qed.
