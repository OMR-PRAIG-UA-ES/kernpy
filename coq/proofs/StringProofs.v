(* Facts about the string operations of model/Strings.v.  [split_str] and [replace] run on fuel.  It is discharged once, for
   [split_str], which gets two equations (split_str_head: an occurrence at the head; split_str_step: any other
   character); [split_char] is [split_str] of a one-character pattern, [replace] is [join] after [split_str],
   [contains_str] counts the pieces.  A pattern is written [String c0 p] (it is never empty), and the recurring
   hypothesis is that a piece of text avoids c0: then no occurrence can start inside it.
   At the end, the decimal numerals: [parse_Z] reads [string_of_Z z] back as z (python's int(str(n)) = n). *)
From Coq Require Import List String Ascii Bool Arith.
From KV Require Import Strings.
Import ListNotations.
Open Scope string_scope.

Lemma append_assoc (a b c : string) : (a ++ b) ++ c = a ++ (b ++ c).
Proof. induction a as [|x a IH]; cbn; congruence. Qed.
Lemma append_nil_r (a : string) : a ++ "" = a.
Proof. induction a as [|x a IH]; cbn; congruence. Qed.
Lemma length_append (a b : string) : String.length (a ++ b) = String.length a + String.length b.
Proof. induction a as [|x a IH]; cbn; congruence. Qed.

Lemma concat_str_cons s l : String.concat "" (s :: l) = s ++ String.concat "" l.
Proof. destruct l; simpl; [now rewrite append_nil_r | reflexivity]. Qed.
Lemma concat_str_app l1 l2 : String.concat "" (l1 ++ l2) = String.concat "" l1 ++ String.concat "" l2.
Proof. induction l1 as [|x l1 IH]; [reflexivity|]. cbn [app]. now rewrite !concat_str_cons, IH, append_assoc. Qed.

Lemma drop_self p s : drop (String.length p) (p ++ s) = s.
Proof. induction p as [|x p IH]; simpl; [reflexivity | exact IH]. Qed.
Lemma length_drop n : forall s, String.length (drop n s) = String.length s - n.
Proof. induction n as [|n IH]; intros [|c s]; simpl; auto. Qed.

Lemma join_cons sep x y l : join sep (x :: y :: l) = x ++ sep ++ join sep (y :: l).
Proof. reflexivity. Qed.

Lemma join_concat sep l : join sep l = String.concat sep l.
Proof. induction l as [|x [|y l] IH]; [reflexivity..|]. now rewrite join_cons, IH. Qed.

Lemma join_app_head sep a x l : join sep ((a ++ x) :: l) = a ++ join sep (x :: l).
Proof. destruct l; cbn [join]; [reflexivity | apply append_assoc]. Qed.

Lemma join_in sep x : forall l, In x l -> exists a b, join sep l = a ++ x ++ b.
Proof.
  induction l as [|y [|z l] IH]; intros H; [contradiction | |].
  - destruct H as [->|[]]. exists "", "". now rewrite append_nil_r.
  - rewrite join_cons. destruct H as [->|H]; [exists "", (sep ++ join sep (z :: l)); reflexivity|].
    destruct (IH H) as [a [b E]]. exists (y ++ sep ++ a), b. now rewrite E, !append_assoc.
Qed.

Lemma join_ends_with_part sep : forall l, l <> [] -> exists a x, join sep l = a ++ x /\ In x l.
Proof.
  induction l as [|y [|z l] IH]; intros H; [contradiction | exists "", y; split; [reflexivity | now left] |].
  destruct (IH ltac:(discriminate)) as [a [x [E Hin]]]. exists (y ++ sep ++ a), x.
  split; [now rewrite join_cons, E, !append_assoc | now right].
Qed.

Lemma join_nil sep : forall l, join sep l = "" -> String.concat "" l = "".
Proof.
  induction l as [|x [|y l] IH]; [reflexivity | exact (fun H => H) |]. rewrite join_cons, concat_str_cons.
  destruct x; [|discriminate]. destruct sep; [exact IH | discriminate].
Qed.

Fixpoint avoids (c0 : ascii) (s : string) : bool :=
  match s with EmptyString => true | String c s' => negb (Ascii.eqb c c0) && avoids c0 s' end.

Lemma avoids_app c0 a b : avoids c0 (a ++ b) = avoids c0 a && avoids c0 b.
Proof. induction a as [|x a IH]; simpl; [reflexivity | rewrite IH; now rewrite andb_assoc]. Qed.

Lemma avoids_concat c0 l : avoids c0 (String.concat "" l) = forallb (avoids c0) l.
Proof. induction l as [|x l IH]; [reflexivity|]. now rewrite concat_str_cons, avoids_app, IH. Qed.

Lemma avoids_join c0 sep l : avoids c0 sep = true -> forallb (avoids c0) l = true -> avoids c0 (join sep l) = true.
Proof.
  intros Hs. induction l as [|x [|y l] IH]; cbn [forallb]; intros H; [reflexivity | now rewrite andb_true_r in H |].
  apply andb_true_iff in H as [Hx H]. now rewrite join_cons, !avoids_app, Hx, Hs, IH.
Qed.

Lemma startswith_self p s : startswith p (p ++ s) = true.
Proof. induction p as [|x p IH]; simpl; [reflexivity | now rewrite Ascii.eqb_refl, IH]. Qed.

Lemma startswith_inv p : forall s, startswith p s = true -> s = p ++ drop (String.length p) s.
Proof.
  induction p as [|c p IH]; intros [|d s] H; try reflexivity; try discriminate.
  cbn [startswith] in H. apply andb_true_iff in H as [Hc H]. apply Ascii.eqb_eq in Hc. subst d. cbn. f_equal. apply IH, H.
Qed.

Lemma startswith_head {c0 p x s} : negb (Ascii.eqb x c0) = true -> startswith (String c0 p) (String x s) = false.
Proof. intros H. apply negb_true_iff in H. cbn [startswith]. now rewrite Ascii.eqb_sym, H. Qed.

(* a character that is not in the pattern is a barrier: no occurrence reaches across it *)
Lemma startswith_barrier x p : avoids x p = true -> forall a b, startswith p (a ++ String x b) = startswith p a.
Proof.
  induction p as [|c p IH]; intros Hp a b; [reflexivity|]. cbn [avoids] in Hp. apply andb_true_iff in Hp as [Hc Hp].
  destruct a as [|y a]; cbn [append startswith].
  - apply negb_true_iff in Hc. now rewrite Hc.
  - destruct (Ascii.eqb c y); [apply IH, Hp | reflexivity].
Qed.

Lemma endswith_cons p y s : String.length p <= String.length s -> endswith p (String y s) = endswith p s.
Proof.
  intros H. unfold endswith. cbn [String.length]. rewrite Nat.sub_succ_l by exact H. cbn [drop].
  now rewrite (proj2 (Nat.leb_le _ _) H), (proj2 (Nat.leb_le _ _) (le_S _ _ H)).
Qed.

Lemma endswith_app p x : String.length p <= String.length x -> forall a, endswith p (a ++ x) = endswith p x.
Proof.
  intros H. induction a as [|y a IH]; [reflexivity|]. cbn [append]. rewrite endswith_cons, IH; [reflexivity|].
  rewrite length_append. apply (Nat.le_trans _ _ _ H), Nat.le_add_l.
Qed.

Lemma endswith_avoids c : forall x, avoids c x = true -> endswith (String c "") x = false.
Proof.
  induction x as [|y [|z x] IH]; cbn [avoids]; intros H; [reflexivity | |].
  - rewrite andb_true_r in H. apply negb_true_iff in H. unfold endswith. cbn. now rewrite H.
  - apply andb_true_iff in H as [_ H]. rewrite endswith_cons by apply le_n_S, Nat.le_0_l. apply IH, H.
Qed.

(* [cur] is the piece being read, reversed *)
Lemma split_str_fuel_cur sep : forall f s cur, split_str_fuel f sep s cur =
  rev_string_aux cur (hd "" (split_str_fuel f sep s "")) :: tl (split_str_fuel f sep s "").
Proof.
  induction f as [|f IH]; intros [|c s] cur; cbn [split_str_fuel]; try reflexivity.
  destruct (startswith _ _); [reflexivity|]. now rewrite (IH s (String c cur)), (IH s (String c "")).
Qed.

Lemma split_str_fuel_enough c0 p : forall f1 s f2 cur, String.length s <= f1 -> String.length s <= f2 ->
  split_str_fuel f1 (String c0 p) s cur = split_str_fuel f2 (String c0 p) s cur.
Proof.
  induction f1 as [|f1 IH]; intros [|c s] [|f2] cur H1 H2; try reflexivity; try (now apply Nat.nle_succ_0 in H1); try (now apply Nat.nle_succ_0 in H2).
  apply le_S_n in H1, H2. cbn [split_str_fuel String.length drop]. destruct (startswith _ _); [f_equal|]; apply IH; try assumption;
    rewrite length_drop; eapply Nat.le_trans; try apply Nat.le_sub_l; assumption.
Qed.

Lemma split_str_head c0 p b : split_str (String c0 p) (String c0 p ++ b) = "" :: split_str (String c0 p) b.
Proof.
  unfold split_str at 1. cbn [append split_str_fuel]. change (String c0 (p ++ b)) with (String c0 p ++ b).
  rewrite startswith_self, drop_self. f_equal.
  apply split_str_fuel_enough; [rewrite length_append; apply Nat.le_add_l | apply Nat.le_succ_diag_r].
Qed.

Lemma split_str_step {sep c s} : startswith sep (String c s) = false ->
  split_str sep (String c s) = String c (hd "" (split_str sep s)) :: tl (split_str sep s).
Proof.
  unfold split_str. cbn [String.length]. generalize (S (String.length s)). intros f E. cbn [split_str_fuel]. rewrite E.
  apply split_str_fuel_cur.
Qed.

Lemma split_str_nonempty sep s : split_str sep s <> [].
Proof. unfold split_str. now rewrite split_str_fuel_cur. Qed.

Theorem split_str_none c0 p a : avoids c0 a = true -> split_str (String c0 p) a = [a].
Proof.
  induction a as [|x a IH]; cbn [avoids]; intros H; [reflexivity|]. apply andb_true_iff in H as [Hx Ha].
  now rewrite (split_str_step (startswith_head Hx)), IH.
Qed.

Theorem split_str_occ c0 p a b : avoids c0 a = true ->
  split_str (String c0 p) (a ++ String c0 p ++ b) = a :: split_str (String c0 p) b.
Proof.
  induction a as [|x a IH]; cbn [avoids]; intros H; [apply split_str_head|]. apply andb_true_iff in H as [Hx Ha].
  change (String x a ++ ?s) with (String x (a ++ s)). now rewrite (split_str_step (startswith_head Hx)), IH.
Qed.

Theorem split_join_str c0 p : forall parts, parts <> [] -> forallb (avoids c0) parts = true ->
  split_str (String c0 p) (join (String c0 p) parts) = parts.
Proof.
  induction parts as [|x [|y parts] IH]; cbn [forallb]; intros Hne H; [contradiction | |].
  - rewrite andb_true_r in H. now apply split_str_none.
  - apply andb_true_iff in H as [Hx H]. rewrite join_cons, (split_str_occ _ _ _ _ Hx). f_equal. apply IH; [discriminate | exact H].
Qed.

Lemma contains_str_occ c0 p a b : contains_str (String c0 p) (a ++ String c0 p ++ b) = true.
Proof.
  enough (G : tl (split_str (String c0 p) (a ++ String c0 p ++ b)) <> []).
  { unfold contains_str. destruct (split_str _ _) as [|x [|y l]]; [now destruct G.. | reflexivity]. }
  induction a as [|c a IH].
  - change ("" ++ ?s) with s. rewrite split_str_head. apply split_str_nonempty.
  - change (String c a ++ ?s) with (String c (a ++ s)). destruct (startswith (String c0 p) (String c (a ++ String c0 p ++ b))) eqn:O.
    + rewrite (startswith_inv _ _ O), split_str_head. apply split_str_nonempty.
    + now rewrite (split_str_step O).
Qed.

Lemma contains_str_none c0 p a : avoids c0 a = true -> contains_str (String c0 p) a = false.
Proof. intros Ha. unfold contains_str. now rewrite (split_str_none c0 p a Ha). Qed.

Lemma split_char_str sep : forall s f cur, String.length s < f -> split_char_aux sep s cur = split_str_fuel f (String sep "") s cur.
Proof.
  induction s as [|c s IH]; intros [|f] cur H; try (now apply Nat.nlt_0_r in H); [reflexivity|].
  cbn [split_char_aux split_str_fuel startswith drop String.length]. rewrite andb_true_r, (Ascii.eqb_sym sep c).
  destruct (Ascii.eqb c sep); [f_equal|]; apply IH, Nat.succ_lt_mono, H.
Qed.

Lemma split_char_split_str sep s : split_char sep s = split_str (String sep "") s.
Proof. apply split_char_str, Nat.lt_succ_diag_r. Qed.

Theorem split_join_char sep : forall parts, parts <> [] -> forallb (avoids sep) parts = true ->
  split_char sep (join (String sep "") parts) = parts.
Proof. intros parts. rewrite split_char_split_str. apply split_join_str. Qed.

Lemma split_char_cons sep c s : split_char sep (String c s) =
  if Ascii.eqb c sep then "" :: split_char sep s else String c (hd "" (split_char sep s)) :: tl (split_char sep s).
Proof.
  rewrite !split_char_split_str. destruct (Ascii.eqb_spec c sep) as [->|N].
  - exact (split_str_head sep "" s).
  - apply split_str_step, startswith_head. now apply negb_true_iff, Ascii.eqb_neq.
Qed.

Lemma split_char_avoids_sep sep : forall s, forallb (avoids sep) (split_char sep s) = true.
Proof.
  induction s as [|c s IH]; [reflexivity|]. rewrite split_char_cons. destruct (Ascii.eqb c sep) eqn:E; [exact IH|].
  destruct (split_char sep s) as [|h t]; cbn [hd tl forallb avoids] in *; now rewrite E.
Qed.

Lemma split_char_avoids sep x : forall s, avoids x s = true -> forallb (avoids x) (split_char sep s) = true.
Proof.
  induction s as [|c s IH]; [reflexivity|]. cbn [avoids]. intros H. apply andb_true_iff in H as [Hc Hs]. specialize (IH Hs).
  rewrite split_char_cons. destruct (Ascii.eqb c sep); [exact IH|].
  destruct (split_char sep s) as [|h t]; cbn [hd tl forallb avoids] in *; now rewrite Hc.
Qed.

Lemma replace_fuel_split sep rep : forall f s, replace_fuel f sep rep s = join rep (split_str_fuel f sep s "").
Proof.
  induction f as [|f IH]; intros [|c s]; try reflexivity. cbn [replace_fuel split_str_fuel]. rewrite !IH. destruct (startswith _ _).
  - now rewrite (split_str_fuel_cur sep f _ "").
  - rewrite (split_str_fuel_cur sep f s (String c "")). now destruct (split_str_fuel f sep s "") as [|x [|y l]].
Qed.

Theorem replace_split c0 p rep s : replace (String c0 p) rep s = join rep (split_str (String c0 p) s).
Proof. apply replace_fuel_split. Qed.

Lemma replace_occ c0 p rep b : replace (String c0 p) rep (String c0 p ++ b) = rep ++ replace (String c0 p) rep b.
Proof.
  rewrite !replace_split, split_str_head. pose proof (split_str_nonempty (String c0 p) b). now destruct (split_str _ b).
Qed.

Lemma replace_step {c0 p rep c s} : startswith (String c0 p) (String c s) = false ->
  replace (String c0 p) rep (String c s) = String c (replace (String c0 p) rep s).
Proof. intros E. rewrite !replace_split, (split_str_step E). now destruct (split_str _ s) as [|x [|y l]]. Qed.

Lemma replace_skip c0 p rep a b : avoids c0 a = true -> replace (String c0 p) rep (a ++ b) = a ++ replace (String c0 p) rep b.
Proof.
  induction a as [|x a IH]; cbn [avoids append]; [reflexivity|]. intros H. apply andb_true_iff in H as [Hx Ha].
  rewrite replace_step by apply startswith_head, Hx. now rewrite IH.
Qed.

Lemma replace_avoids c0 p rep a : avoids c0 a = true -> replace (String c0 p) rep a = a.
Proof. intros H. rewrite <- (append_nil_r a). now rewrite (replace_skip _ _ _ _ _ H). Qed.

Lemma replace_join {c0 p parts} : forallb (avoids c0) parts = true ->
  replace (String c0 p) "" (join (String c0 p) parts) = String.concat "" parts.
Proof.
  intros H. destruct parts as [|x l]; [reflexivity|]. rewrite replace_split, split_join_str by (discriminate || exact H).
  apply join_concat.
Qed.

Lemma replace_barrier c0 p rep x a b : avoids x (String c0 p) = true ->
  replace (String c0 p) rep (a ++ String x b) = replace (String c0 p) rep a ++ String x (replace (String c0 p) rep b).
Proof.
  (* the goal is generalised to every suffix [drop k a] of a: an occurrence at the head of a is stepped over whole, and
     what is left of a is then a suffix, not the tail *)
  intros Hp. change a with (drop 0 a). generalize 0. pose proof (startswith_barrier x _ Hp) as B.
  induction a as [|y a IH]; intros k.
  - replace (drop k "") with "" by now destruct k. apply replace_step. exact (B "" b).
  - destruct k as [|k]; [|apply IH]. cbn [drop]. destruct (startswith (String c0 p) (String y a)) eqn:E.
    + apply startswith_inv in E. rewrite E, append_assoc, !replace_occ, append_assoc. f_equal. apply (IH (String.length p)).
    + cbn [append]. rewrite (replace_step (eq_trans (B (String y a) b) E)), (replace_step E).
      cbn [append]. f_equal. apply (IH 0).
Qed.

Lemma replace_join_barrier c0 p rep x : avoids x (String c0 p) = true -> forall parts,
  replace (String c0 p) rep (join (String x "") parts) = join (String x "") (map (replace (String c0 p) rep) parts).
Proof.
  intros Hp. induction parts as [|a [|b parts] IH]; [reflexivity | reflexivity |].
  rewrite join_cons. cbn [append]. now rewrite (replace_barrier _ _ _ _ a _ Hp), IH.
Qed.

From Coq Require Import ZArith Lia.

Lemma digit_char d : d < 10 ->
  let c := ascii_of_nat (48 + d) in is_digit c = true /\ ascii_nat c - 48 = d.
Proof.
  intros H. unfold is_digit, ascii_nat. rewrite nat_ascii_embedding by lia.
  split; [apply andb_true_intro; split; apply Nat.leb_le|]; lia.
Qed.

Lemma mod_10_lt n : n mod 10 < 10.
Proof. apply Nat.mod_upper_bound. discriminate. Qed.

Lemma parse_digit q d acc : d < 10 ->
  parse_nat_aux (String (ascii_of_nat (48 + d)) acc) (Z.of_nat q) = parse_nat_aux acc (Z.of_nat (10 * q + d)).
Proof.
  intros H. destruct (digit_char d H) as [D V]. cbn [parse_nat_aux]. rewrite D, V. f_equal.
  now rewrite Nat2Z.inj_add, Nat2Z.inj_mul.
Qed.

(* [string_of_nat n] runs on fuel n + 1, more than the number of digits *)
Lemma parse_nat_digits : forall fuel n acc, n < fuel ->
  parse_nat_aux (nat_digits fuel n acc) 0%Z = parse_nat_aux acc (Z.of_nat n).
Proof.
  induction fuel as [|f IH]; intros n acc H; [now apply Nat.nlt_0_r in H|]. cbn [nat_digits].
  (* n = 10 * q + d from here on *)
  pose proof (Nat.div_mod n 10 (Nat.neq_succ_0 9)) as E. pose proof (mod_10_lt n) as R.
  revert E R. generalize (n / 10) (n mod 10). intros q d -> R. destruct q as [|q]; cbn [Nat.eqb].
  - apply (parse_digit 0 d acc R).
  - rewrite IH by lia. apply (parse_digit (S q) d acc R).
Qed.

Lemma nat_digits_head : forall f n acc, exists d s,
  d < 10 /\ nat_digits (S f) n acc = String (ascii_of_nat (48 + d)) s.
Proof.
  induction f as [|f IH]; intros n acc; cbn [nat_digits]; pose proof (mod_10_lt n); destruct (n / 10 =? 0)%nat; eauto.
Qed.

Lemma nat_digits_avoids c0 : is_digit c0 = false -> forall f n acc,
  avoids c0 acc = true -> avoids c0 (nat_digits f n acc) = true.
Proof.
  intros Hc. induction f as [|f IH]; intros n acc Ha; cbn [nat_digits]; [exact Ha|].
  assert (A : avoids c0 (String (ascii_of_nat (48 + n mod 10)) acc) = true).
  { cbn [avoids]. rewrite Ha, andb_true_r. destruct (Ascii.eqb_spec (ascii_of_nat (48 + n mod 10)) c0) as [<-|]; [|reflexivity].
    destruct (digit_char _ (mod_10_lt n)) as [D _]. congruence. }
  destruct (n / 10 =? 0)%nat; auto.
Qed.

Lemma parse_string_of_nat n : parse_nat_aux (string_of_nat n) 0%Z = Some (Z.of_nat n).
Proof. apply parse_nat_digits, Nat.lt_succ_diag_r. Qed.

Lemma parse_Z_digit d s : d < 10 ->
  parse_Z (String (ascii_of_nat (48 + d)) s) = parse_nat_aux (String (ascii_of_nat (48 + d)) s) 0%Z.
Proof. intros H. do 10 (destruct d as [|d]; [reflexivity|]). lia. Qed.

Lemma parse_string_of_Z z : parse_Z (string_of_Z z) = Some z.
Proof.
  destruct z as [|p|p]; [reflexivity | | ]; cbn [string_of_Z];
    pose proof (parse_string_of_nat (Pos.to_nat p)) as P; rewrite positive_nat_Z in P; unfold string_of_nat in *;
    destruct (nat_digits_head (Pos.to_nat p) (Pos.to_nat p) "") as (d & s & Hd & E); rewrite E in *.
  - now rewrite parse_Z_digit.
  - cbn [append parse_Z]. now rewrite P.
Qed.

Lemma string_of_Z_avoids c0 z : is_digit c0 = false -> Ascii.eqb "-" c0 = false -> avoids c0 (string_of_Z z) = true.
Proof.
  intros Hd Hm. assert (N : forall n, avoids c0 (string_of_nat n) = true) by (intros n; now apply nat_digits_avoids).
  destruct z as [|p|p]; cbn [string_of_Z append avoids]; rewrite ?N, ?Hm; [|reflexivity..].
  destruct (Ascii.eqb_spec "0" c0) as [<-|]; [discriminate | reflexivity].
Qed.
