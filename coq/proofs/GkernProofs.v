(* C10, pitch level: the agnostic spelling is the Humdrum pitch on the same line or space under a G2 clef, for every
   clef class, letter, alteration and EVERY octave in Z ([gkern_exact] and its corollaries).  Around it: [text_path],
   the way through the text 'T@N' / 'S@N' (PositionInStaff.__str__, then gkern_to_g_clef_pitch) that Python takes
   gives what the structured [gkern_of_repr] of the theorems gives; octave marks on a clef do not change the class
   create_clef makes ([create_clef_ignores_marks]); every class it can make has a bottom line ([dispatch_total]). *)
From Coq Require Import List String Ascii Bool ZArith Lia.
From KV Require Import Strings CatGen ClefGen Pitch PitchSpec Gkern StringProofs TransposeProofs CodecProofs.
Import ListNotations.
Open Scope string_scope.
Open Scope Z_scope.

Definition dia (l o : Z) : Z := 7 * o + l.
Definition spell_base (l o : Z) : string :=
  if o >=? 4 then repeat_char (letter_char l) (Z.to_nat (o - 4 + 1))
  else repeat_char (to_upper (letter_char l)) (Z.to_nat (3 - o + 1)).
Lemma spell_split l a o : spell l a o = spell_base l o ++ kern_acc a.
Proof. reflexivity. Qed.

(* the Humdrum spelling of the pitch whose diatonic number is d (7*octave + letter) *)
Definition spell_dia (d a : Z) : string := spell (d mod 7) a (d / 7).

(* bottom-line letter index and octave of a clef class, read off the generated table *)
Definition bottom_params (cls : string) : option (Z * Z) :=
  match assoc_str cls clef_bottoms with
  | Some (n, o) => match assoc_str n letter_to_index with Some i => Some (i, o) | None => None end
  | None => None
  end.
Definition clef_classes : list string := map fst clef_bottoms.

Lemma letter_to_index_eq : letter_to_index = map (fun l => (letter_name l, l)) letters_z.
Proof. reflexivity. Qed.

(* whatever clef_bottoms holds: a name that has an index is a letter name, and a letter name makes a pitch *)
Lemma bottom_spec cls i ob : bottom_params cls = Some (i, ob) ->
  clef_bottom cls = Some (spec_pitch i 0 ob) /\ In i letters_z.
Proof.
  unfold bottom_params, clef_bottom. destruct (assoc_str cls clef_bottoms) as [[n o]|]; [|discriminate].
  destruct (assoc_str n letter_to_index) as [j|] eqn:E; [|discriminate]. intros [= <- <-].
  apply assoc_str_In in E. rewrite letter_to_index_eq in E. apply in_map_iff in E as (l & [= <- <-] & Hl).
  destruct (letter_name_props l Hl) as (_ & _ & _ & _ & S). unfold mk_pitch, spec_pitch, spec_name.
  now rewrite S, append_nil_r.
Qed.

Lemma letter_index l : In l letters_z -> assoc_str (letter_name l) letter_to_index = Some l.
Proof. revert l. apply letters_ind; reflexivity. Qed.

Lemma gk_letter_at l : In l letters_z -> nth_str (Z.to_nat l) gk_letters = Some (String (letter_char l) "").
Proof. revert l. apply letters_ind; reflexivity. Qed.

Lemma gk_letter_spec l a o : In l letters_z -> gk_letter (spec_pitch l a o) = Some (letter_name l).
Proof.
  intros Hl. unfold gk_letter, spec_pitch. cbn [ap_name]. rewrite (strip_spec_name l a Hl).
  apply (letter_name_props l Hl).
Qed.

Lemma compute_position_spec lb ob l a o : In lb letters_z -> In l letters_z ->
  compute_position (spec_pitch lb 0 ob) (spec_pitch l a o) = Some ((o - ob) * 7 + (l - lb)).
Proof.
  intros Hb Hl. unfold compute_position.
  rewrite (gk_letter_spec lb 0 ob Hb), (gk_letter_spec l a o Hl).
  rewrite (letter_index lb Hb), (letter_index l Hl). reflexivity.
Qed.

(* the bottom line (position 0) is e, two steps above c4 *)
Lemma repr_distance ls : let '(isl, n) := position_repr ls in 2 * n + (if isl then 0 else 1) = ls + 2.
Proof. unfold position_repr. destruct (ls mod 2 =? 0) eqn:E; Z.to_euclidean_division_equations; lia. Qed.

Lemma gkern_of_distance (isl : bool) n :
  let d := 2 * n + (if isl then 0 else 1) in
  gkern_of_repr (isl, n) = Some (spell_base (d mod 7) (4 + d / 7)).
Proof.
  intros d. unfold gkern_of_repr. fold d.
  rewrite (gk_letter_at (d mod 7) (proj2 (in_letters _) (Z.mod_pos_bound d 7 eq_refl))).
  rewrite upper_single, !repeat_string_single. unfold spell_base.
  destruct (d >? 0) eqn:E1; [|destruct (d <? 0) eqn:E2].
  - pose proof (Z.div_pos d 7). replace (4 + d / 7 >=? 4) with true by lia.
    do 2 f_equal. lia.
  - pose proof (Z.div_lt_upper_bound d 7 0). replace (4 + d / 7 >=? 4) with false by lia.
    do 2 f_equal. lia.
  - replace d with 0 by lia. reflexivity.
Qed.

Lemma gkern_of_repr_spec ls :
  gkern_of_repr (position_repr ls) = Some (spell_base ((ls + 2) mod 7) (4 + (ls + 2) / 7)).
Proof.
  pose proof (repr_distance ls) as D. destruct (position_repr ls) as [isl n].
  rewrite gkern_of_distance, D. reflexivity.
Qed.

(* [dia 2 4] is e4, the bottom line under G2: the pitch moves by the steps from the clef's bottom line to e4 *)
Theorem gkern_exact cls i ob l a o :
  bottom_params cls = Some (i, ob) -> In l letters_z ->
  pitch_to_gkern (spec_pitch l a o) cls = Some (spell_dia (dia l o - dia i ob + dia 2 4) a).
Proof.
  intros Hb Hl. destruct (bottom_spec cls i ob Hb) as [B Hi].
  unfold pitch_to_gkern. rewrite B, (compute_position_spec i ob l a o Hi Hl).
  rewrite gkern_of_repr_spec, (accidentals_spec l a o Hl). unfold spell_dia. rewrite spell_split. unfold dia.
  replace (7 * o + l - (7 * ob + i) + (7 * 4 + 2)) with (((o - ob) * 7 + (l - i) + 2) + 4 * 7) by lia.
  rewrite Z.mod_add, Z.div_add, (Z.add_comm _ 4) by lia. reflexivity.
Qed.

Lemma spell_dia_dia l a o : In l letters_z -> spell_dia (dia l o) a = spell l a o.
Proof.
  intros Hl. apply in_letters in Hl. unfold spell_dia, dia.
  rewrite (Z.add_comm _ l), (Z.mul_comm 7), Z.mod_add, Z.div_add, Z.mod_small, Z.div_small by lia. reflexivity.
Qed.

Theorem gkern_g2_identity l a o : In l letters_z ->
  pitch_to_gkern (spec_pitch l a o) "GClef" = Some (spell l a o).
Proof.
  intros Hl. rewrite (gkern_exact "GClef" 2 4 l a o eq_refl Hl).
  replace (dia l o - dia 2 4 + dia 2 4) with (dia l o) by lia. now rewrite spell_dia_dia.
Qed.

Theorem gkern_shift cls i ob l a o l' o' k :
  bottom_params cls = Some (i, ob) -> In l letters_z -> In l' letters_z ->
  dia l' o' = dia l o + k ->
  exists d, pitch_to_gkern (spec_pitch l a o) cls = Some (spell_dia d a) /\
            pitch_to_gkern (spec_pitch l' a o') cls = Some (spell_dia (d + k) a).
Proof.
  intros Hb Hl Hl' Hk. exists (dia l o - dia i ob + dia 2 4). split.
  - now apply gkern_exact.
  - rewrite (gkern_exact cls i ob l' a o' Hb Hl'). do 2 f_equal. lia.
Qed.

Theorem gkern_bottom_is_e cls i ob : bottom_params cls = Some (i, ob) ->
  pitch_to_gkern (spec_pitch i 0 ob) cls = Some "e".
Proof.
  intros Hb. rewrite (gkern_exact cls i ob i 0 ob Hb (proj2 (bottom_spec cls i ob Hb))).
  replace (dia i ob - dia i ob + dia 2 4) with (dia 2 4) by lia. reflexivity.
Qed.

Theorem gkern_accidental cls i ob l a o : bottom_params cls = Some (i, ob) -> In l letters_z ->
  exists letters, pitch_to_gkern (spec_pitch l 0 o) cls = Some letters /\
                  pitch_to_gkern (spec_pitch l a o) cls = Some (letters ++ kern_acc a).
Proof.
  intros Hb Hl. exists (spell_dia (dia l o - dia i ob + dia 2 4) 0). split.
  - now apply gkern_exact.
  - rewrite (gkern_exact cls i ob l a o Hb Hl). unfold spell_dia. rewrite !spell_split.
    change (kern_acc 0) with "". now rewrite append_nil_r.
Qed.

Theorem text_path ls : gkern_to_g_clef_pitch (position_str ls) = gkern_of_repr (position_repr ls).
Proof.
  unfold position_str, gkern_to_g_clef_pitch. destruct (position_repr ls) as [isl n].
  change token_separator with (String "@" "").
  rewrite split_str_occ, split_str_none by (try apply string_of_Z_avoids; now destruct isl).
  destruct isl; cbn [String.eqb Ascii.eqb Bool.eqb]; now rewrite parse_string_of_Z.
Qed.

Definition window : list Z := map (fun k => Z.of_nat k - 300) (seq 0 601).
Lemma text_path_window : forallb (fun ls =>
  match gkern_to_g_clef_pitch (position_str ls), gkern_of_repr (position_repr ls) with
  | Some a, Some b => String.eqb a b | _, _ => false end) window = true.
Proof. apply forallb_forall. intros ls _. rewrite text_path, gkern_of_repr_spec. apply String.eqb_refl. Qed.

(* the octave marks of a clef, as in *clefGv2 or *clefF^^4 *)
Definition is_mark (c : ascii) : bool := Ascii.eqb c "^" || Ascii.eqb c "v".

Lemma filter_marks (p : ascii -> bool) pre m post : p "^"%char = false -> p "v"%char = false ->
  forallb is_mark (chars_of_string m) = true ->
  filter p (chars_of_string (pre ++ m ++ post)) = filter p (chars_of_string (pre ++ post)).
Proof.
  intros P1 P2 Hm. rewrite !chars_of_string_app, !filter_app. f_equal.
  induction m as [|c m IH]; cbn [chars_of_string forallb filter app] in *; [reflexivity|].
  apply andb_prop in Hm as [H1 H2]. apply orb_prop in H1 as [E|E]; apply Ascii.eqb_eq in E; subst c;
    rewrite ?P1, ?P2; auto.
Qed.

Theorem create_clef_ignores_marks pre m post :
  forallb is_mark (chars_of_string m) = true ->
  create_clef_core (pre ++ m ++ post) = create_clef_core (pre ++ post).
Proof.
  intros Hm. unfold create_clef_core. now rewrite !(filter_marks _ pre m post) by first [exact Hm | reflexivity].
Qed.

Example create_clef_examples :
  create_clef "*clefG2" = Some "GClef" /\ create_clef "*clefGv2" = Some "GClef" /\ create_clef "*clefF^^4" = Some "F4Clef"
  /\ create_clef "*clefC3" = Some "C3Clef" /\ create_clef "*clefF2" = None /\ create_clef "*clefX" = None.
Proof. vm_compute. repeat split. Qed.

Lemma dispatch_total : forallb (fun row => match snd row with
                                           | Some cls => mem_str cls clef_classes | None => true end) clef_dispatch = true.
Proof. vm_compute. reflexivity. Qed.
