(* The importer model (model/Importer.v), one step at a time.  Every successful step - a cell of an ordinary line, or a whole '!!'
   line - appends exactly one node to the store and registers it with its parent; nothing else about the existing
   nodes ever changes.  [step_cell_spec] and [step_row_spec] say which node, under which parent, and what happens to
   the other fields of the document and of the importer's state; [run_rows_invariant] turns a property kept by these
   steps into a property of every imported document;
   [step_cell_complete] and [step_row_cells] are the converse, for showing that a given text imports.  The later files
   about the importer rest on these and never unfold [step_cell] or [step_row] again.
   Then: one stage per non-empty line and one node per cell (C02), importing lines in two goes (C19). *)
From Coq Require Import List String Ascii Bool ZArith Lia.
From KV Require Import Strings CatGen Cat SpineImp Token KernTok Importer SpineImpProofs.
Import ListNotations.
Open Scope list_scope.

Lemma update_nth_length {A} (f : A -> A) : forall (l : list A) n, List.length (update_nth n f l) = List.length l.
Proof. induction l as [|x l IH]; intros n; destruct n; simpl; auto. Qed.

Lemma nth_update_nth {A} (f : A -> A) d : forall (l : list A) n m, m < List.length l ->
  nth m (update_nth n f l) d = if Nat.eqb m n then f (nth m l d) else nth m l d.
Proof.
  induction l as [|x l IH]; intros n m H; simpl in H; [lia|].
  destruct n, m; simpl; try reflexivity. apply IH. lia.
Qed.

Lemma update_nth_app_last {A} (f : A -> A) (l : list A) (x : A) :
  update_nth (List.length l) f (l ++ [x]) = l ++ [f x].
Proof. induction l as [|y l IH]; simpl; [reflexivity | now rewrite IH]. Qed.

Definition add_child (c : nat) (p : node) : node :=
  {| n_id := n_id p; n_stage := n_stage p; n_tok := n_tok p; n_parent := n_parent p; n_header := n_header p;
     n_lastop := n_lastop p; n_sigs := n_sigs p; n_children := n_children p ++ [c] |}.

Definition adds (d : doc) (p : nat) (nd : node) (d' : doc) : Prop :=
  d_nodes d' = update_nth p (add_child (List.length (d_nodes d))) (d_nodes d) ++ [nd].

Section Adds.
  Context {d : doc} {p : nat} {nd : node} {d' : doc} (H : adds d p nd d').

  Lemma adds_length : List.length (d_nodes d') = S (List.length (d_nodes d)).
  Proof. rewrite H, app_length, update_nth_length. simpl. lia. Qed.

  Lemma adds_cases i : i < List.length (d_nodes d') -> i < List.length (d_nodes d) \/ i = List.length (d_nodes d).
  Proof. rewrite adds_length. lia. Qed.

  Lemma adds_new : get_node d' (List.length (d_nodes d)) = nd.
  Proof. unfold get_node. rewrite H, app_nth2; rewrite update_nth_length; [|lia]. now rewrite Nat.sub_diag. Qed.

  Lemma adds_old_node i : i < List.length (d_nodes d) ->
    get_node d' i = if Nat.eqb i p then add_child (List.length (d_nodes d)) (get_node d i) else get_node d i.
  Proof. intros Hi. unfold get_node. rewrite H, app_nth1 by (now rewrite update_nth_length). now apply nth_update_nth. Qed.

  (* every field of an existing node but its list of children stays *)
  Lemma adds_old {A} (f : node -> A) i : (forall c x, f (add_child c x) = f x) -> i < List.length (d_nodes d) ->
    f (get_node d' i) = f (get_node d i).
  Proof. intros Hf Hi. rewrite adds_old_node by exact Hi. destruct (Nat.eqb i p); [apply Hf | reflexivity]. Qed.

  Lemma adds_children i : i < List.length (d_nodes d) ->
    n_children (get_node d' i) = n_children (get_node d i) ++ (if Nat.eqb i p then [List.length (d_nodes d)] else []).
  Proof. intros Hi. rewrite adds_old_node by exact Hi. destruct (Nat.eqb i p); [reflexivity | now rewrite app_nil_r]. Qed.
End Adds.

(* tokens that start a path of their own: a header, and the single token of a '!!' line *)
Definition fresh_tok (t : token) : bool :=
  match t with THeader _ _ => true | TSimple _ _ cls => String.eqb cls "MetacommentToken" | _ => false end.

(* the node made for token [t] in stage [st] under parent [p], when the store holds [n] nodes and [pn] is the parent: a
   header is its own header and, like the token of a '!!' line, takes nothing from its parent; any other cell inherits header,
   last spine operator (Importer.get_last_spine_operator) and signature dictionary, and enters itself in the dictionary when
   it is a signature *)
Definition node_of (n : nat) (pn : node) (st p : nat) (t : token) : node :=
  {| n_id := n; n_stage := st; n_tok := Some t; n_parent := Some p;
     n_header := match t with THeader _ _ => Some n | _ => if fresh_tok t then None else n_header pn end;
     n_lastop := if fresh_tok t then None
                 else if match n_tok pn with Some u => is_spine_op_token u | None => false end then Some p else n_lastop pn;
     n_sigs := if fresh_tok t then [] else if is_signature_token t then dict_set (tok_class t) n (n_sigs pn) else n_sigs pn;
     n_children := [] |}.

Definition new_node (d : doc) (st p : nat) (t : token) : node := node_of (List.length (d_nodes d)) (get_node d p) st p t.

Definition stages_after (d : doc) (st id : nat) : list (list nat) :=
  if Nat.eqb st (List.length (d_stages d)) then d_stages d ++ [[id]] else update_nth st (fun l => l ++ [id]) (d_stages d).

(* what a step does to the document (its fields d_header_stage and d_cancelled are not followed: no theorem about the
   importer reads them) *)
Record appended (d : doc) (st p : nat) (t : token) (d' : doc) : Prop := {
  ap_adds : adds d p (new_node d st p t) d';
  ap_stages : d_stages d' = stages_after d st (List.length (d_nodes d));
  ap_mst : d_mst d' = d_mst d;
  ap_errors : d_errors d' = d_errors d ++ match t with TError _ _ => [List.length (d_nodes d)] | _ => [] end }.
Arguments ap_adds {d st p t d'} _.
Arguments ap_stages {d st p t d'} _.
Arguments ap_mst {d st p t d'} _.
Arguments ap_errors {d st p t d'} _.

Lemma add_node_adds {d st p t lo sg h d1 id} : add_node d st p t lo sg h = IOk (d1, id) ->
  id = List.length (d_nodes d) /\
  adds d p {| n_id := id; n_stage := st; n_tok := Some t; n_parent := Some p; n_header := h; n_lastop := lo; n_sigs := sg;
              n_children := [] |} d1 /\
  d_stages d1 = stages_after d st id /\ d_mst d1 = d_mst d /\ d_errors d1 = d_errors d.
Proof.
  unfold add_node. destruct (Nat.ltb (List.length (d_stages d)) st); [discriminate|].
  intros H. injection H as <- <-. repeat split.
Qed.

(* set_header_self and sig_update, applied to the node just made *)
Lemma adds_update_new {d p nd d1} (f : node -> node) :
  adds d p nd d1 -> adds d p (f nd) (set_nodes d1 (update_nth (List.length (d_nodes d)) f (d_nodes d1))).
Proof.
  unfold adds. intros ->. cbn [set_nodes d_nodes]. set (l := update_nth p _ (d_nodes d)).
  replace (List.length (d_nodes d)) with (List.length l) by apply update_nth_length. apply update_nth_app_last.
Qed.

Lemma sig_not_bbox t : is_signature_token t = true -> String.eqb (tok_class t) "BoundingBoxToken" = false.
Proof.
  intros H. destruct (String.eqb_spec (tok_class t) "BoundingBoxToken") as [E|]; [|reflexivity].
  unfold is_signature_token in H. rewrite E in H. discriminate H.
Qed.

Lemma add_node_succeeds d st p t lo sg h : st <= List.length (d_stages d) ->
  exists d', add_node d st p t lo sg h = IOk (d', List.length (d_nodes d)).
Proof.
  intros H. unfold add_node. apply Nat.ltb_ge in H. rewrite H. eauto.
Qed.

Lemma new_node_inherits d st p t : fresh_tok t = false ->
  new_node d st p t =
  {| n_id := List.length (d_nodes d); n_stage := st; n_tok := Some t; n_parent := Some p; n_header := n_header (get_node d p);
     n_lastop := get_last_spine_operator d p;
     n_sigs := if is_signature_token t then dict_set (tok_class t) (List.length (d_nodes d)) (n_sigs (get_node d p)) else n_sigs (get_node d p);
     n_children := [] |}.
Proof. intros H. unfold new_node, node_of. rewrite H. now destruct t. Qed.

Lemma new_node_header d st p t : fresh_tok t = false -> n_header (new_node d st p t) = n_header (get_node d p).
Proof. intros H. now rewrite new_node_inherits. Qed.

(* a token that can stand in an ordinary cell: no ErrorToken, header or '!!' token; and when it is a signature it is
   neither a barline nor under CORE, so it never opens a measure *)
Definition cell_tok_ok (t : token) : bool :=
  match t with
  | TError _ _ | THeader _ _ => false
  | TSimple _ _ cls => negb (String.eqb cls "MetacommentToken")
  | _ => true
  end && implb (is_signature_token t) (negb (cat_beq (tok_cat t) BARLINES) && negb (is_child CORE (tok_cat t))).
Definition kres_ok (r : kres) : bool := match r with KTok t => cell_tok_ok t | KOut => true end.

(* kern_recognise hands scan_barline a text that begins with "=".  After it come optional characters, then the barline
   type; each pattern on a character literal is a tree of tests on the eight bits of the character, far dearer to walk than
   to leave abstract: [bar_rest] is the body of scan_barline with these steps as variables *)
Lemma bar_rest (m1 : chars -> bool * chars) (m3 m4 m5 : chars -> chars) h r0 :
  kres_ok (let '(eq2, r1) := m1 r0 in
           let '(_, r2) := take_while is_digit r1 in
           let r3 := m3 r2 in let r4 := m4 r3 in let r5 := m5 r4 in
           let body := str r5 in
           let '(ty, ferm) := if endswith ";" body then (take (String.length body - 1) body, ";") else (body, "") in
           if String.eqb ty "" || mem_str ty barline_types
           then KTok (TBar ((if eq2 then "==" else "=") ++ ty ++ ferm) h) else KOut)%string = true.
Proof.
  destruct (m1 r0) as [eq2 r1]. destruct (take_while is_digit r1) as [ds r2]. cbv zeta.
  destruct (if endswith ";" _ then _ else _) as [ty ferm]. destruct (_ || _); reflexivity.
Qed.

Lemma scan_barline_ok s : kres_ok (scan_barline (String "=" s)) = true.
Proof.
  exact (bar_rest (fun r0 => match r0 with "="%char :: x => (true, x) | _ => (false, r0) end)
                  (fun r2 => match r2 with "a"%char :: x => x | _ => r2 end)
                  (fun r3 => match r3 with "b"%char :: x => x | _ => r3 end)
                  (fun r4 => match r4 with "-"%char :: x => x | _ => r4 end) _ (chars_of_string s)).
Qed.

Lemma scan_clef_ok s l : kres_ok (scan_clef s l) = true.
Proof.
  unfold scan_clef, simple. destruct l as [|sign r]; [reflexivity|]. destruct (in_chars "CFGPT" sign); [|reflexivity].
  match goal with |- context [match ?r1 with [] => _ | _ => _ end] => destruct r1 as [|d [|]] end; try reflexivity.
  destruct (in_chars "12345" d); reflexivity.
Qed.

(* the interpretations are a cascade of tests whose every answer is KOut, a [simple] token or scan_clef's: the property
   passes through each test *)
Lemma kres_ok_if (b : bool) x y : kres_ok x = true -> kres_ok y = true -> kres_ok (if b then x else y) = true.
Proof. now destruct b. Qed.

Lemma kres_ok_opt {A} (o : option A) f y : (forall a, kres_ok (f a) = true) -> kres_ok y = true ->
  kres_ok (match o with Some a => f a | None => y end) = true.
Proof. intros Hf Hy. destruct o; [apply Hf | exact Hy]. Qed.

Lemma scan_interpretation_ok s : kres_ok (scan_interpretation s) = true.
Proof.
  unfold scan_interpretation. cbv zeta. do 5 (apply kres_ok_if; [reflexivity|]).
  repeat (apply kres_ok_opt; [intros r|]); try (apply kres_ok_if; reflexivity).
  (* four cases are left: *clef; *M, where the pattern "/" is a tree of tests on the eight bits of the character, which
     [kres_ok_if] walks once the bits are variables; *I; a text without "*" in front *)
  - apply scan_clef_ok.
  - destruct (scan_number r) as [[ds [|[b0 b1 b2 b3 b4 b5 b6 b7] r1]]|]; try reflexivity. repeat (apply kres_ok_if; try reflexivity).
  - match goal with |- context [forallb _ ?r'] => destruct r' end; [reflexivity | apply kres_ok_if; reflexivity].
  - reflexivity.
Qed.

Lemma scan_notes_ok s : kres_ok (scan_notes s) = true.
Proof. unfold scan_notes. cbv zeta. destruct (scan_elements _ _ _) as [[els st]|]; [|reflexivity]. destruct els as [|e [|e2 r]]; reflexivity. Qed.

Lemma kern_recognise_ok {s t} : kern_recognise s = KTok t -> cell_tok_ok t = true.
Proof.
  intros H. change (kres_ok (KTok t) = true). rewrite <- H. clear H. unfold kern_recognise.
  destruct s as [|c s']; [reflexivity|].
  destruct (String.eqb _ "."); [reflexivity|]. destruct (Ascii.eqb c "*"); [apply scan_interpretation_ok|].
  destruct (Ascii.eqb_spec c "=") as [->|_]; [apply scan_barline_ok | apply scan_notes_ok].
Qed.

Lemma import_cell_tok {bad h s t} : import_cell bad h s = RTok t ->
  kern_recognise s = KTok t \/ exists c, t = TSimple s c "SimpleToken".
Proof.
  unfold import_cell. destruct (String.eqb s ""); [discriminate|].
  match goal with |- match ?o with _ => _ end = _ -> _ => destruct o as [r|] eqn:Eo; [|discriminate] end.
  unfold import_token. generalize (import_kind_outcome _ fst (fun _ => r) (kind_of_header h) s). cbv beta.
  destruct (import_kind _ _ _ _ _) as [e|[c [t'|]]|txt c]; try discriminate.
  - intros -> H. injection H as <-. left.
    destruct (mem_str s bad); [discriminate|]. destruct (kern_recognise s) as [t0|]; [congruence|].
    destruct (oracle_cat bad s); discriminate.
  - intros -> H. injection H as <-. right. eauto.
Qed.

Lemma import_cell_ok {bad h s t} : import_cell bad h s = RTok t -> cell_tok_ok t = true.
Proof. intros H. destruct (import_cell_tok H) as [K|[c ->]]; [exact (kern_recognise_ok K) | reflexivity]. Qed.

Lemma cell_tok_ok_fresh t : cell_tok_ok t = true -> fresh_tok t = false.
Proof.
  unfold cell_tok_ok. intros H. apply andb_true_iff in H. destruct H as [H _].
  destruct t; try discriminate; try reflexivity. now apply negb_true_iff.
Qed.

(* the token of an ordinary cell (no header, no spine operator) whose parent is [p], on line [rowno] *)
Definition cell_token (bad : list string) (d : doc) (rowno p : nat) (col : string) (t : token) : Prop :=
  if startswith "!" col then t = TSimple col FIELD_COMMENTS "FieldCommentToken"
  else exists hid, n_header (get_node d p) = Some hid /\
       match import_cell bad (header_text d hid) col with RTok t' => t = t' | RFail => t = TError col rowno | ROut => False end.

(* how often the node of a spine operator is handed to the next line as a parent: not at all for '*-', twice for a split,
   once for a '*v' unless it continues a run of '*v' cells of one spine (the cell to its left is '*v' under the same
   header): the join.  ('*x' is listed among the operators, and step_cell raises on it.) *)
Definition op_handed (row : list string) (d : doc) (prev : list nat) (icol : nat) (col : string) : nat :=
  if String.eqb col "*-" then 0
  else if String.eqb col "*+" || String.eqb col "*^" then 2
  else match icol with
       | O => 1
       | S k => if negb (String.eqb (nth k row "") "*v")
                   || negb (match n_header (get_node d (nth k prev 0)), n_header (get_node d (nth icol prev 0)) with
                            | Some a, Some b => Nat.eqb a b | None, None => true | _, _ => false end)
                then 1 else 0
       end.

(* parent, token, number of times the new node is handed to the next line as a parent, "opens a measure" flag *)
Inductive cell_case (bad : list string) (row : list string) (s : istate) (icol : nat) (col : string) : nat -> token -> nat -> bool -> Prop :=
| cc_header : startswith "**" col = true -> cell_case bad row s icol col (i_prehdr s) (THeader col icol) 1 false
| cc_op prev : startswith "**" col = false -> mem_str col spine_operations = true ->
    i_prev s = Some prev -> icol < List.length prev ->
    cell_case bad row s icol col (nth icol prev 0) (TSimple col SPINE_OPERATION "SpineOperationToken")
      (op_handed row (i_doc s) prev icol col) false
| cc_tok prev t : startswith "**" col = false -> mem_str col spine_operations = false ->
    i_prev s = Some prev -> icol < List.length prev -> cell_token bad (i_doc s) (i_row s) (nth icol prev 0) col t ->
    cell_case bad row s icol col (nth icol prev 0) t 1
      (cat_beq (tok_cat t) BARLINES || is_child CORE (tok_cat t) && Nat.eqb (List.length (d_mst (i_doc s))) 0).

Lemma cell_token_shape {bad d r p col t} : cell_token bad d r p col t -> t = TError col r \/ cell_tok_ok t = true.
Proof.
  unfold cell_token. destruct (startswith "!" col); [intros ->; right; reflexivity|]. intros [hid [_ H]].
  destruct (import_cell bad _ col) as [t'| |] eqn:E; [subst t'; right; exact (import_cell_ok E) | now left | contradiction].
Qed.

Lemma cell_token_fresh {bad d r p col t} : cell_token bad d r p col t -> fresh_tok t = false.
Proof. intros Ct. destruct (cell_token_shape Ct) as [->|Hok]; [reflexivity | now apply cell_tok_ok_fresh]. Qed.

Lemma cell_token_sig {bad d r p col t} z : cell_token bad d r p col t -> is_signature_token t = true ->
  cat_beq (tok_cat t) BARLINES || is_child CORE (tok_cat t) && z = false.
Proof.
  intros Ct Hs. destruct (cell_token_shape Ct) as [->|Hok]; [discriminate|].
  unfold cell_tok_ok in Hok. rewrite Hs in Hok. cbn [implb] in Hok. apply andb_true_iff in Hok. destruct Hok as [_ Hok].
  apply andb_true_iff in Hok. destruct Hok as [Hb Hc]. apply negb_true_iff in Hb, Hc. now rewrite Hb, Hc.
Qed.

(* after a cell: the document with the cell's node, which is handed [k] times to the next line as a parent *)
Definition after_cell (s : istate) (d' : doc) (k : nat) : istate :=
  {| i_doc := d'; i_row := i_row s; i_stage := i_stage s; i_next := i_next s ++ repeat (List.length (d_nodes (i_doc s))) k;
     i_prev := i_prev s; i_prehdr := i_prehdr s |}.

Theorem step_cell_spec {bad row s icol col s' b} : step_cell bad row s icol col = IOk (s', b) ->
  exists p t k d', cell_case bad row s icol col p t k b /\ appended (i_doc s) (i_stage s) p t d' /\ s' = after_cell s d' k.
Proof.
  intros H. unfold step_cell in H. set (n := List.length (d_nodes (i_doc s))).
  (* E0: a branch that hands the new node to no one ('*-', a '*v' inside a join) returns a bare [set_doc]; this gives it the
     form of the others, [push_next _ (repeat n 0)] *)
  assert (E0 : forall dd, set_doc s dd = push_next (set_doc s dd) []) by (intros dd; unfold push_next, set_doc; cbn; now rewrite app_nil_r).
  destruct (startswith "**" col) eqn:E1; [|destruct (mem_str col spine_operations) eqn:E2].
  - destruct (add_node _ _ _ _ _ _ _) as [[d1 id]| |] eqn:Ha in H; try discriminate.
    destruct (add_node_adds Ha) as (-> & A & St & M & Er). injection H as <- <-.
    exists (i_prehdr s), (THeader col icol), 1, (set_header_self d1 n).
    split; [now constructor|]. split; [|reflexivity].
    constructor; cbn [set_header_self set_nodes d_stages d_mst d_errors]; try assumption.
    + exact (adds_update_new _ A).
    + now rewrite Er, app_nil_r.
  - destruct (i_prev s) as [prev|] eqn:Ep in H; [|discriminate].
    destruct (Nat.leb _ icol) eqn:El in H; [discriminate|]. apply Nat.leb_gt in El.
    destruct (add_node _ _ _ _ _ _ _) as [[d1 id]| |] eqn:Ha in H; try discriminate.
    destruct (add_node_adds Ha) as (-> & A & St & M & Er). fold n in H.
    set (t := TSimple col SPINE_OPERATION "SpineOperationToken") in *.
    assert (Ap : appended (i_doc s) (i_stage s) (nth icol prev 0) t d1)
      by (constructor; [exact A | exact St | exact M | now rewrite Er, app_nil_r]).
    (* the operators differ in how often the node is handed on, and in a mark on the last operator above *)
    set (cancel := fun dd : doc => match n_lastop (get_node d1 n) with Some op => set_cancelled dd op (i_stage s) | None => dd end) in H.
    assert (Apc : appended (i_doc s) (i_stage s) (nth icol prev 0) t (cancel d1))
      by (unfold cancel; destruct (n_lastop _); [destruct Ap; now constructor | exact Ap]).
    exists (nth icol prev 0), t, (op_handed row (i_doc s) prev icol col).
    enough (G : exists d', appended (i_doc s) (i_stage s) (nth icol prev 0) t d' /\
                  s' = push_next (set_doc s d') (repeat n (op_handed row (i_doc s) prev icol col)) /\ b = false).
    { destruct G as (d' & G1 & G2 & ->). exists d'. split; [exact (cc_op _ _ _ _ _ prev E1 E2 Ep El)|]. split; [exact G1 | exact G2]. }
    unfold op_handed. destruct (String.eqb col "*-"); [injection H as <- <-; rewrite E0; eauto|].
    destruct (String.eqb col "*+" || String.eqb col "*^"); [injection H as <- <-; eauto|].
    destruct (String.eqb col "*v"); [|discriminate]. injection H as <- <-. exists (cancel d1).
    destruct icol as [|k]; [auto|]. destruct (_ || _); [|rewrite E0]; auto.
  - match type of H with context [match ?X with IOk _ => _ | IErr _ => _ | IOut => _ end = _] =>
      destruct X as [[tok is_err]| |] eqn:Etok in H end; try discriminate.
    destruct (i_prev s) as [prev|] eqn:Ep in H, Etok; [|discriminate].
    destruct (Nat.leb _ icol) eqn:El in H, Etok; [discriminate|]. apply Nat.leb_gt in El.
    set (p := nth icol prev 0) in *.
    assert (Ct : cell_token bad (i_doc s) (i_row s) p col tok /\ is_err = match tok with TError _ _ => true | _ => false end).
    { unfold cell_token. destruct (startswith "!" col); [injection Etok as <- <-; split; reflexivity|].
      destruct (n_header _) as [hid|]; [|discriminate].
      destruct (import_cell bad _ col) as [t| |] eqn:Ei; try discriminate; injection Etok as <- <-.
      - split; [exists hid; rewrite Ei; auto|]. pose proof (import_cell_ok Ei). now destruct t.
      - split; [exists hid; rewrite Ei; auto | reflexivity]. }
    destruct Ct as [Ct ->].
    destruct (add_node _ _ _ _ _ _ _) as [[d1 id]| |] eqn:Ha in H; try discriminate.
    destruct (add_node_adds Ha) as (-> & A & St & M & Er). fold n in H, A.
    set (d2 := if match tok with TError _ _ => true | _ => false end then add_error d1 n else d1) in H.
    assert (H2 : d_nodes d2 = d_nodes d1 /\ d_stages d2 = d_stages d1 /\ d_mst d2 = d_mst (i_doc s) /\
                 d_errors d2 = d_errors (i_doc s) ++ match tok with TError _ _ => [n] | _ => [] end).
    { unfold d2. destruct tok; cbn [add_error d_nodes d_stages d_mst d_errors]; rewrite ?Er, ?app_nil_r; auto. }
    destruct H2 as (N2 & S2 & M2 & R2). rewrite M2 in H. injection H as H <-.
    pose proof (cc_tok bad row _ _ _ prev _ E1 E2 Ep El Ct) as C.
    (* the updates after add_node only touch the node just made: together they give [new_node] *)
    pose proof (new_node_inherits (i_doc s) (i_stage s) p tok (cell_token_fresh Ct)) as Enew. fold n in Enew.
    destruct (is_signature_token tok) eqn:Es.
    + (* a signature enters itself in its dictionary: it is no bounding box and never opens a measure *)
      rewrite (cell_token_sig _ Ct Es), (sig_not_bbox _ Es) in H. subst s'.
      exists p, tok, 1, (sig_update d2 n (tok_class tok)). split; [exact C|]. split; [|reflexivity].
      constructor; cbn [sig_update set_nodes d_stages d_mst d_errors]; [|rewrite S2; exact St | exact M2 | exact R2].
      unfold adds. cbn [sig_update set_nodes d_nodes]. rewrite Enew, N2. exact (adds_update_new _ A).
    + assert (E3 : forall x y : bool, (if x then d2 else if y then d2 else d2) = d2) by (now intros [] []).
      rewrite E3 in H. subst s'. exists p, tok, 1, d2. split; [exact C|]. split; [|reflexivity].
      constructor; [|rewrite S2; exact St | exact M2 | exact R2]. unfold adds. rewrite N2, Enew. exact A.
Qed.

Lemma cell_token_fun {bad d r p col t t'} : cell_token bad d r p col t -> cell_token bad d r p col t' -> t' = t.
Proof.
  unfold cell_token. destruct (startswith "!" col); [congruence|]. intros (hid & Hh & Ct) (hid' & Hh' & Ct').
  rewrite Hh in Hh'. injection Hh' as <-. destruct (import_cell bad _ col); [congruence | congruence | contradiction].
Qed.

Lemma cell_case_fun {bad row s icol col p t k b p' t' k' b'} :
  cell_case bad row s icol col p t k b -> cell_case bad row s icol col p' t' k' b' -> p' = p /\ t' = t /\ k' = k /\ b' = b.
Proof.
  intros [E1 | prev E1 E2 Ep _ | prev t0 E1 E2 Ep _ Ct] [E1' | prev' E1' E2' Ep' _ | prev' t0' E1' E2' Ep' _ Ct'];
    try congruence; [auto | rewrite Ep in Ep'; injection Ep' as <- ..]; [auto|].
  rewrite (cell_token_fun Ct Ct'). auto.
Qed.

(* the converse of [step_cell_spec]: a cell that has a case is imported, but for the operator *x, which kernpy
   lists and does not implement *)
Theorem step_cell_complete {bad row s icol col p t k b} :
  cell_case bad row s icol col p t k b -> i_stage s <= List.length (d_stages (i_doc s)) -> col <> "*x"%string ->
  exists d', appended (i_doc s) (i_stage s) p t d' /\ step_cell bad row s icol col = IOk (after_cell s d' k, b).
Proof.
  intros C Hst Hx.
  assert (Hr : exists r, step_cell bad row s icol col = IOk r).
  { unfold step_cell.
    (* the three branches get names, so that choosing one is a step on a small goal *)
    match goal with |- context [if startswith "**" col then ?A else if mem_str col spine_operations then ?B else ?D] =>
      set (hdr := A); set (op := B); set (tok := D) end.
    destruct C as [E1 | prev E1 E2 Ep Hl | prev t0 E1 E2 Ep Hl Ct]; rewrite E1; [|rewrite E2; apply Nat.leb_gt in Hl ..].
    - subst hdr. clear op tok.
      match goal with |- context [add_node ?d ?st ?q ?u ?lo ?sg ?h] => destruct (add_node_succeeds d st q u lo sg h Hst) as [d1 ->] end. eauto.
    - subst op. clear hdr tok. rewrite Ep, Hl.
      match goal with |- context [add_node ?d ?st ?q ?u ?lo ?sg ?h] => destruct (add_node_succeeds d st q u lo sg h Hst) as [d1 ->] end.
      cbn [mem_str spine_operations] in E2.
      repeat (apply orb_true_iff in E2; destruct E2 as [E2|E2]); try discriminate E2; apply String.eqb_eq in E2; subst col;
        [eexists; reflexivity .. | now destruct Hx].
    - subst tok. clear hdr op.
      match goal with |- context [match ?X with IOk _ => _ | IErr _ => _ | IOut => _ end] => assert (Etok : exists e, X = IOk (t0, e)) end.
      { rewrite Ep, Hl. unfold cell_token in Ct. destruct (startswith "!" col); [subst; eauto|]. destruct Ct as (hid & -> & Ct).
        destruct (import_cell bad _ col); [subst; eauto | subst; eauto | contradiction]. }
      destruct Etok as [e ->]. rewrite Ep, Hl.
      match goal with |- context [add_node ?d ?st ?q ?u ?lo ?sg ?h] => destruct (add_node_succeeds d st q u lo sg h Hst) as [d1 ->] end. eauto. }
  destruct Hr as [[s' b'] Hr]. destruct (step_cell_spec Hr) as (p' & t' & k' & d' & C' & A & ->).
  destruct (cell_case_fun C C') as (-> & -> & -> & ->). exists d'. auto.
Qed.

(* before the first cell: the parents are the nodes the previous line handed on (or, after a '!!' line, still the old ones) *)
Definition begin_row (s : istate) : istate :=
  {| i_doc := i_doc s; i_row := i_row s; i_stage := S (i_stage s); i_next := [];
     i_prev := match i_next s with [] => i_prev s | l => Some l end; i_prehdr := i_prehdr s |}.

(* after the last cell: the line's stage enters the measure index when one of its cells said so; when every spine path
   has ended no parent is left for a later line *)
Definition end_row (s : istate) (bar : bool) : istate :=
  {| i_doc := if bar then push_mst (i_doc s) (i_stage s) else i_doc s; i_row := S (i_row s); i_stage := i_stage s;
     i_next := i_next s; i_prev := match i_next s, i_prev s with [], Some (_ :: _) => Some [] | _, p => p end;
     i_prehdr := i_prehdr s |}.

Lemma end_row_nodes s bar : d_nodes (i_doc (end_row s bar)) = d_nodes (i_doc s).
Proof. now destruct bar. Qed.

Definition meta_tok (first : string) : token := TSimple (strip first) LINE_COMMENTS "MetacommentToken".

(* after a '!!' line read in state [s] (begin_row of the state before the line): the line's one node is the parent of the next
   '!!' line or header; the parents of the next ordinary line stay *)
Definition meta_row (s : istate) (d' : doc) : istate :=
  {| i_doc := d'; i_row := S (i_row s); i_stage := i_stage s; i_next := []; i_prev := i_prev s;
     i_prehdr := List.length (d_nodes (i_doc s)) |}.

Lemma step_cells_invariant bad (P : istate -> Prop) :
  (forall row s icol col p t k b d', P s -> cell_case bad row s icol col p t k b -> appended (i_doc s) (i_stage s) p t d' ->
     P (after_cell s d' k)) ->
  forall row cols s icol bar s' b, P s -> step_cells bad row s icol cols bar = IOk (s', b) -> P s'.
Proof.
  intros P_cell row. induction cols as [|c cols IH]; intros s icol bar s' b Hs; cbn [step_cells]; [intros H; now injection H as <- _|].
  destruct (step_cell bad row s icol c) as [[s1 b1]| |] eqn:Hc; try discriminate.
  destruct (step_cell_spec Hc) as (p & t & k & d' & C & A & ->). apply IH. exact (P_cell _ _ _ _ _ _ _ _ _ Hs C A).
Qed.

Definition grows (d d' : doc) : Prop :=
  List.length (d_nodes d) <= List.length (d_nodes d') /\
  forall i, i < List.length (d_nodes d) ->
    n_tok (get_node d' i) = n_tok (get_node d i) /\ n_header (get_node d' i) = n_header (get_node d i).

Lemma grows_refl d : grows d d. Proof. split; [lia | intros i _; split; reflexivity]. Qed.
Lemma grows_trans a b c : grows a b -> grows b c -> grows a c.
Proof.
  intros [L1 H1] [L2 H2]. split; [lia|]. intros i Hi. destruct (H1 i Hi) as [A1 B1]. destruct (H2 i ltac:(lia)) as [A2 B2].
  split; congruence.
Qed.
Lemma grows_nodes d d' : d_nodes d' = d_nodes d -> grows d d'.
Proof. intros E. unfold grows, get_node. rewrite E. split; [lia | now split]. Qed.
Lemma grows_appended {d st p t d'} : appended d st p t d' -> grows d d'.
Proof.
  intros [A _ _ _]. split; [rewrite (adds_length A); lia|]. intros i Hi. split; now apply (adds_old A).
Qed.

(* [get_node] outside the store gives the root node: a node that has what the root has not (a token, a header) is inside *)
Lemma in_range {A} (f : node -> option A) d id : f root_node = None -> f (get_node d id) <> None -> id < List.length (d_nodes d).
Proof.
  intros Hr H. destruct (Nat.lt_ge_cases id (List.length (d_nodes d))) as [L|G]; [exact L|]. unfold get_node in H.
  now rewrite nth_overflow in H.
Qed.

Lemma tok_in_range {d id t} : n_tok (get_node d id) = Some t -> id < List.length (d_nodes d).
Proof. intros H. apply (in_range n_tok d id eq_refl). now rewrite H. Qed.

Lemma step_cells_frame {bad row cols s icol bar s' b} : step_cells bad row s icol cols bar = IOk (s', b) ->
  i_stage s' = i_stage s /\ i_row s' = i_row s /\ d_mst (i_doc s') = d_mst (i_doc s) /\ grows (i_doc s) (i_doc s').
Proof.
  apply (step_cells_invariant bad (fun x => i_stage x = i_stage s /\ i_row x = i_row s /\ d_mst (i_doc x) = d_mst (i_doc s) /\
                                            grows (i_doc s) (i_doc x))); [|repeat split; apply grows_refl].
  intros r s0 ic c p t k b1 d' (St & Er & M & G) _ A. cbn [after_cell i_stage i_row i_doc]. rewrite (ap_mst A).
  exact (conj St (conj Er (conj M (grows_trans _ _ _ G (grows_appended A))))).
Qed.

Lemma step_row_cells bad s first rest : startswith "!!" first = false ->
  step_row bad s (first :: rest) =
  match step_cells bad (first :: rest) (begin_row s) 0 (first :: rest) false with
  | IOk (s1, bar) => IOk (end_row s1 bar) | IErr e => IErr e | IOut => IOut
  end.
Proof.
  intros E. unfold step_row. fold (begin_row s). rewrite E. destruct (step_cells _ _ _ _ _ _) as [[s1 bar]| |] eqn:Hc; try reflexivity.
  unfold end_row. now rewrite (proj1 (step_cells_frame Hc)).
Qed.

Theorem step_row_spec {bad s first rest s'} : step_row bad s (first :: rest) = IOk s' ->
  let s0 := begin_row s in
  if startswith "!!" first
  then exists d', appended (i_doc s0) (i_stage s0) (i_prehdr s0) (meta_tok first) d' /\ s' = meta_row s0 d'
  else exists s1 bar, step_cells bad (first :: rest) s0 0 (first :: rest) false = IOk (s1, bar) /\ s' = end_row s1 bar.
Proof.
  cbv zeta. destruct (startswith "!!" first) eqn:E.
  - unfold step_row. fold (begin_row s). rewrite E.
    cbn [begin_row i_doc i_prehdr i_row i_stage]. destruct (add_node _ _ _ _ _ _ _) as [[d1 id]| |] eqn:Ha; try discriminate.
    destruct (add_node_adds Ha) as (-> & A & St & M & Er). intros H. injection H as <-.
    exists d1. split; [|reflexivity]. constructor; try assumption. now rewrite Er, app_nil_r.
  - rewrite (step_row_cells _ _ _ _ E). destruct (step_cells _ _ _ _ _ _) as [[s1 bar]| |]; try discriminate.
    intros H. injection H as <-. now exists s1, bar.
Qed.

Definition nonempty (row : list string) : bool := match row with [] => false | _ => true end.

Lemma run_rows_preserves bad (P : istate -> Prop) : (forall s row s', P s -> step_row bad s row = IOk s' -> P s') ->
  forall rows s s', P s -> run_rows bad s rows = IOk s' -> P s'.
Proof.
  intros Hstep. induction rows as [|r rows IH]; intros s s' Hs; cbn [run_rows]; [intros H; now injection H as <-|].
  destruct (step_row bad s r) as [s1| |] eqn:Hr; try discriminate. apply IH. exact (Hstep s r s1 Hs Hr).
Qed.

(* [Pout] holds between two lines, [Pin] while the cells of a line are read *)
Section Invariant.
  Variables (bad : list string) (Pout Pin : istate -> Prop).
  Hypothesis P_begin : forall s, Pout s -> Pin (begin_row s).
  Hypothesis P_cell : forall row s icol col p t k b d', Pin s -> cell_case bad row s icol col p t k b ->
    appended (i_doc s) (i_stage s) p t d' -> Pin (after_cell s d' k).
  Hypothesis P_end : forall s bar, Pin s -> Pout (end_row s bar).
  Hypothesis P_meta : forall s first d', Pin s -> appended (i_doc s) (i_stage s) (i_prehdr s) (meta_tok first) d' -> Pout (meta_row s d').

  Lemma step_row_invariant s row s' : Pout s -> step_row bad s row = IOk s' -> Pout s'.
  Proof.
    intros Hs H. destruct row as [|first rest]; [now injection H as <-|]. apply step_row_spec in H.
    destruct (startswith "!!" first).
    - destruct H as (d' & A & ->). exact (P_meta _ first d' (P_begin s Hs) A).
    - destruct H as (s1 & bar & Hc & ->). apply P_end. eapply (step_cells_invariant bad Pin P_cell); [apply P_begin|]; eassumption.
  Qed.

  Theorem run_rows_invariant : forall rows s s', Pout s -> run_rows bad s rows = IOk s' -> Pout s'.
  Proof. exact (run_rows_preserves bad Pout step_row_invariant). Qed.
End Invariant.

Lemma loads_run {bad text d} : loads bad text = IOk d -> exists s, run_rows bad init_state (rows_of_text text) = IOk s /\ i_doc s = d.
Proof. unfold loads. destruct (run_rows _ _ _) as [s| |]; try discriminate. intros H. injection H as <-. eauto. Qed.
Lemma load_file_run {bad bytes d} : load_file bad bytes = IOk d -> exists s, run_rows bad init_state (rows_of_file bytes) = IOk s /\ i_doc s = d.
Proof. unfold load_file. destruct (run_rows _ _ _) as [s| |]; try discriminate. intros H. injection H as <-. eauto. Qed.

(* a cell beyond the live spine paths, unless it is a header, makes the import fail (never a mis-aligned tree) *)
Lemma surplus_cell_rejected bad row s icol col prev :
  i_prev s = Some prev -> List.length prev <= icol -> startswith "**" col = false ->
  forall r, step_cell bad row s icol col <> IOk r.
Proof.
  intros Hp Hle Hh [s' b] H. destruct (step_cell_spec H) as (p & t & k & d' & C & _).
  destruct C as [E | prev' E _ Ep Hlt | prev' t E _ Ep Hlt]; [congruence | |]; rewrite Hp in Ep; injection Ep as <-; lia.
Qed.

Definition stage_lengths (d : doc) : list nat := map (@List.length nat) (d_stages d).

Definition cell_count (row : list string) : nat :=
  match row with
  | [] => 0
  | first :: _ => if startswith "!!" first then 1 else List.length row
  end.

(* the stages while a line is read: [base], then the stage being filled once it has a node *)
Definition with_stage (base : list (list nat)) (cur : list nat) : list (list nat) :=
  match cur with [] => base | _ => base ++ [cur] end.

Lemma stages_after_with base cur d id : d_stages d = with_stage base cur ->
  stages_after d (List.length base) id = base ++ [cur ++ [id]].
Proof.
  intros E. unfold stages_after. rewrite E. destruct cur as [|x cur]; cbn [with_stage app].
  - now rewrite Nat.eqb_refl.
  - rewrite app_length. cbn [List.length].
    replace (Nat.eqb (List.length base) (List.length base + 1)) with false by (symmetry; apply Nat.eqb_neq; lia).
    exact (update_nth_app_last (fun l => l ++ [id]) base (x :: cur)).
Qed.

Lemma step_cells_stages {bad row base} : forall {cols s icol bar s' b cur},
  i_stage s = List.length base -> d_stages (i_doc s) = with_stage base cur ->
  step_cells bad row s icol cols bar = IOk (s', b) ->
  d_stages (i_doc s') = with_stage base (cur ++ seq (List.length (d_nodes (i_doc s))) (List.length cols)).
Proof.
  induction cols as [|c cols IH]; intros s icol bar s' b cur Hst Hsg; cbn [step_cells List.length seq].
  - intros H. injection H as <- _. now rewrite app_nil_r.
  - destruct (step_cell bad row s icol c) as [[s1 b1]| |] eqn:Hc; try discriminate.
    destruct (step_cell_spec Hc) as (p & t & k & d' & _ & A & ->). intros H.
    assert (Hsg' : d_stages d' = with_stage base (cur ++ [List.length (d_nodes (i_doc s))])).
    { rewrite (ap_stages A), Hst, (stages_after_with _ _ _ _ Hsg). now destruct cur. }
    apply (IH _ _ _ _ _ (cur ++ [List.length (d_nodes (i_doc s))])) in H; [|exact Hst | exact Hsg']. cbn [after_cell i_doc] in H.
    now rewrite (adds_length (ap_adds A)), <- app_assoc in H.
Qed.

Theorem step_row_stages {bad s first rest s'} : List.length (d_stages (i_doc s)) = S (i_stage s) ->
  step_row bad s (first :: rest) = IOk s' ->
  d_stages (i_doc s') = d_stages (i_doc s) ++ [seq (List.length (d_nodes (i_doc s))) (cell_count (first :: rest))] /\
  i_stage s' = S (i_stage s).
Proof.
  intros Hlen H. apply step_row_spec in H. cbn [cell_count].
  destruct (startswith "!!" first).
  - destruct H as (d' & A & ->). cbn [meta_row begin_row i_doc i_stage] in *. rewrite (ap_stages A).
    unfold stages_after. now rewrite Hlen, Nat.eqb_refl.
  - destruct H as (s1 & bar & Hc & ->).
    pose proof (step_cells_stages (s := begin_row s) (cur := []) (eq_sym Hlen) eq_refl Hc) as E.
    cbn [end_row begin_row i_doc i_stage app with_stage seq] in *. rewrite (proj1 (step_cells_frame Hc)).
    split; [|reflexivity]; destruct bar; assumption.
Qed.

(* the stage counter stays in step with the stages *)
Lemma step_row_sync {bad s row s'} : List.length (d_stages (i_doc s)) = S (i_stage s) -> step_row bad s row = IOk s' ->
  List.length (d_stages (i_doc s')) = S (i_stage s').
Proof.
  intros Hlen H. destruct row as [|first rest]; [injection H as <-; exact Hlen|].
  destruct (step_row_stages Hlen H) as (E & Es). rewrite E, app_length, Es, Hlen. simpl. lia.
Qed.

Theorem run_rows_stages bad : forall rows s s', List.length (d_stages (i_doc s)) = S (i_stage s) -> run_rows bad s rows = IOk s' ->
  stage_lengths (i_doc s') = stage_lengths (i_doc s) ++ map cell_count (filter nonempty rows).
Proof.
  induction rows as [|r rows IH]; intros s s' Hlen; cbn [run_rows filter]; [intros H; injection H as <-; now rewrite app_nil_r|].
  destruct (step_row bad s r) as [s1| |] eqn:Hr; try discriminate. intros H. rewrite (IH _ _ (step_row_sync Hlen Hr) H).
  destruct r as [|first rest]; cbn [nonempty map]; [now injection Hr as <-|].
  destruct (step_row_stages Hlen Hr) as (E & _). unfold stage_lengths. rewrite E, map_app, <- app_assoc. cbn [map app]. now rewrite seq_length.
Qed.

Theorem stages_mirror_rows bad rows s :
  run_rows bad init_state rows = IOk s ->
  stage_lengths (i_doc s) = 1 :: map cell_count (filter nonempty rows).
Proof. exact (run_rows_stages bad rows init_state s eq_refl). Qed.

Theorem loads_stage_count bad text d :
  loads bad text = IOk d ->
  List.length (d_stages d) = S (List.length (filter nonempty (rows_of_text text))) /\
  stage_lengths d = 1 :: map cell_count (filter nonempty (rows_of_text text)).
Proof.
  intros HL. destruct (loads_run HL) as (s & H & <-). pose proof (stages_mirror_rows _ _ _ H) as H1. split; [|exact H1].
  apply (f_equal (@List.length nat)) in H1. unfold stage_lengths in H1. rewrite map_length in H1. rewrite H1. simpl. now rewrite map_length.
Qed.

Lemma stages_set_nodes d ns : d_stages (set_nodes d ns) = d_stages d. Proof. reflexivity. Qed.

(* non-vacuity: a text with a split and a join imports, with the expected stage lengths *)
Example import_example :
  match loads [] ("**kern" ++ String (ascii_of_nat 10) ("*^" ++ String (ascii_of_nat 10) ("4c" ++ String (ascii_of_nat 9) ("4e" ++
        String (ascii_of_nat 10) ("*v" ++ String (ascii_of_nat 9) ("*v" ++ String (ascii_of_nat 10) ("*-" ++ String (ascii_of_nat 10) "")))))))%string with
  | IOk d => stage_lengths d = [1; 1; 1; 2; 2; 1]
  | _ => False
  end.
Proof. vm_compute. reflexivity. Qed.

Definition ibind {A B} (r : ires A) (f : A -> ires B) : ires B :=
  match r with IOk a => f a | IErr e => IErr e | IOut => IOut end.

Theorem run_rows_app bad : forall r1 r2 s,
  run_rows bad s (r1 ++ r2) = ibind (run_rows bad s r1) (fun s' => run_rows bad s' r2).
Proof.
  induction r1 as [|r r1 IH]; intros r2 s; simpl; [reflexivity|].
  destruct (step_row bad s r); simpl; [apply IH | reflexivity | reflexivity].
Qed.

Lemma mst_set_nodes d ns : d_mst (set_nodes d ns) = d_mst d. Proof. reflexivity. Qed.
