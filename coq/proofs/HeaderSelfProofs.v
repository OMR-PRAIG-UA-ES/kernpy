(* C06: all sub-spines of a spine share its header, so spine selection keeps or deletes whole spine paths.
   A node whose token is a HeaderToken is its own header (read off TreeProofs.built); with hdr_ok (TreeProofs) a node and
   its parent have the same header type unless the node is a header itself. *)
From Coq Require Import List Arith Lia.
From KV Require Import Token Importer Exporter ImporterProofs TreeProofs.
Import ListNotations.
Open Scope list_scope.

Definition hself (d : doc) : Prop :=
  forall i e sp, i < List.length (d_nodes d) -> n_tok (get_node d i) = Some (THeader e sp) -> n_header (get_node d i) = Some i.

Lemma built_hself d : built d -> hself d.
Proof.
  intros B i e sp Hi Ht. destruct (Nat.eq_dec i 0) as [->|H0]; [destruct (built_root d B) as (E & _); congruence|].
  destruct (built_node d i B ltac:(lia) Hi) as (st & p & t & _ & _ & Et & E & _). rewrite Ht in Et. now injection Et as <-.
Qed.

Theorem loads_hself bad text d : loads bad text = IOk d -> hself d.
Proof. intros H. exact (built_hself d (loads_built bad text d H)). Qed.

(* with [hself] the two cases of header_type (compute_header_type: a header node, any other node) read the same token, that
   of the node's header: so a node and its parent agree *)
Lemma header_type_by_header d i : hself d ->
  header_type d i = match n_header (get_node d i) with
                    | Some h => match n_tok (get_node d h) with Some (THeader e sp) => Some (e, sp) | _ => None end
                    | None => None
                    end.
Proof.
  intros Hs. unfold header_type, node_tok. destruct (n_tok (get_node d i)) as [[]|] eqn:Et; try reflexivity.
  now rewrite (Hs i _ _ (tok_in_range Et) Et), Et.
Qed.

Theorem spine_path_shares_header bad text d : loads bad text = IOk d ->
  forall i h, i < List.length (d_nodes d) -> n_header (get_node d i) = Some h -> h <> i ->
  exists p, n_parent (get_node d i) = Some p /\ header_type d i = header_type d p /\
            (forall o, spine_selected o (header_type d i) = spine_selected o (header_type d p)).
Proof.
  intros HL i h Hi Hh Hne. destruct (loads_headers bad text d HL i h Hi Hh) as [_ [_ [C|[p [P1 P2]]]]]; [contradiction|].
  exists p. split; [exact P1|]. rewrite !(header_type_by_header d _ (loads_hself bad text d HL)), Hh, P2. split; reflexivity.
Qed.
