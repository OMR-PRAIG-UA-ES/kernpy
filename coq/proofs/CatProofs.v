(* Proofs for C11: the query functions of model/Cat.v against an independent inductive
   description of the documented forest. *)
From Coq Require Import List Bool Lia Permutation.
From KV Require Import Strings CatGen Cat.
Import ListNotations.
Open Scope list_scope.

Fixpoint edges_t (t : ctree) : list (cat * cat) :=
  match t with
  | CT c ch => map (fun x => (c, ct_cat x)) ch
               ++ (fix go (l : list ctree) := match l with [] => [] | x :: r => edges_t x ++ go r end) ch
  end.
Definition edges_of (tr : list ctree) : list (cat * cat) := flat_map edges_t tr.
Definition edges : list (cat * cat) := edges_of documented.     (* (parent, child) pairs of README.md *)

(* desc a c : c is a itself or lies below a in the documented forest *)
Inductive desc : cat -> cat -> Prop :=
| desc_refl : forall a, desc a a
| desc_step : forall a p c, desc a p -> In (p, c) edges -> desc a c.

Definition is_leaf (c : cat) : Prop := forall k, ~ In (c, k) edges.

Lemma desc_trans a b c : desc a b -> desc b c -> desc a c.
Proof.
  intros H1 H2. induction H2 as [x | x p c Hd IH Hpc]; [exact H1|].
  eapply desc_step; [apply IH; exact H1 | exact Hpc].
Qed.

Lemma desc_edge p c : In (p, c) edges -> desc p c.
Proof. apply desc_step, desc_refl. Qed.

Lemma cat_beq_true a b : cat_beq a b = true <-> a = b.
Proof. split; [apply internal_cat_dec_bl | apply internal_cat_dec_lb]. Qed.

Lemma cat_beq_refl a : cat_beq a a = true.
Proof. apply cat_beq_true; reflexivity. Qed.

Lemma mem_In c l : mem c l = true <-> In c l.
Proof.
  unfold mem. rewrite existsb_exists. split.
  - intros [x [Hx He]]. apply cat_beq_true in He. subst. exact Hx.
  - intros H. exists c. split; [exact H | apply cat_beq_refl].
Qed.

Lemma mem_false c l : mem c l = false <-> ~ In c l.
Proof. rewrite <- mem_In. symmetry. apply not_true_iff_false. Qed.

Lemma all_cats_complete : forall c, In c all_cats.
Proof. intros c. apply mem_In. destruct c; vm_compute; reflexivity. Qed.

Lemma by_table {B} (f g : cat -> B) : map f all_cats = map g all_cats -> forall c, f c = g c.
Proof. intros H c. rewrite map_ext_in_iff in H. apply H, all_cats_complete. Qed.

Lemma canon_In l c : In c (canon l) <-> In c l.
Proof.
  unfold canon. rewrite filter_In, mem_In. split; [tauto|]. intros H. split; [apply all_cats_complete | exact H].
Qed.

Fixpoint nodup_b (l : list cat) : bool :=
  match l with [] => true | x :: r => negb (mem x r) && nodup_b r end.

Lemma nodup_b_NoDup l : nodup_b l = true -> NoDup l.
Proof.
  induction l as [|x r IH]; simpl; intros H; [constructor|].
  apply andb_true_iff in H. destruct H as [H1 H2]. constructor; [|auto].
  apply negb_true_iff in H1. now apply mem_false.
Qed.

(* Whatever list-valued functions [ch] and [nd] are: if ch lists the successors along [edges] and nd answers with
   the successors followed by nd of each of them, then nd lists the proper descendants.  Such an nd can exist only
   over edges without a cycle, and the length of its answers is the measure that says so. *)
Section Unfolding.
  Variables ch nd : cat -> list cat.
  Hypothesis ch_edges : forall p c, In c (ch p) <-> In (p, c) edges.
  Hypothesis nd_eq : forall p, nd p = ch p ++ flat_map nd (ch p).

  Lemma nd_In p c : In c (nd p) <-> In c (ch p) \/ exists k, In k (ch p) /\ In c (nd k).
  Proof. rewrite (nd_eq p), in_app_iff, in_flat_map. reflexivity. Qed.

  Lemma nd_child p k : In k (ch p) -> desc p k /\ incl (nd k) (nd p) /\ length (nd k) < length (nd p).
  Proof.
    intros H. split; [apply desc_edge, ch_edges, H|]. split.
    - intros x Hx. apply nd_In. right. exists k. auto.
    - rewrite (nd_eq p), app_length. pose proof (flat_map_length_le nd _ _ H). destruct (ch p); [destruct H | cbn [length]; lia].
  Qed.

  (* what holds of a successor holds of everything in the answer, by induction on its length: each of the three is transitive *)
  Lemma nd_sound : forall p c, In c (nd p) -> desc p c /\ incl (nd c) (nd p) /\ length (nd c) < length (nd p).
  Proof.
    induction p as [p IH] using (Wf_nat.induction_ltof1 _ (fun p => length (nd p))). intros c Hc.
    apply nd_In in Hc. destruct Hc as [Hc | [k [Hk Hc]]]; [exact (nd_child p c Hc)|].
    destruct (nd_child p k Hk) as [Dk [Ik Lk]]. destruct (IH k Lk c Hc) as [Dc [Ic Lc]].
    split; [exact (desc_trans _ _ _ Dk Dc) | split; [exact (incl_tran Ic Ik) | lia]].
  Qed.

  Lemma nd_desc p c : In c (nd p) <-> desc p c /\ c <> p.
  Proof.
    split.
    - intros H. destruct (nd_sound p c H) as [Hd [_ Hl]]. split; [exact Hd|]. intros ->. lia.
    - intros [H N]. revert N. induction H as [a | a q c Hq IH Hqc]; intros N; [contradiction|]. apply ch_edges in Hqc.
      destruct (cat_eq_dec q a) as [-> | Hne]; [apply nd_In; left; exact Hqc|].
      apply (nd_sound a q (IH Hne)), nd_In. left. exact Hqc.
  Qed.
End Unfolding.

Lemma hierarchy_documented : hierarchy = documented.
Proof. reflexivity. Qed.

Lemma forest_nodup : NoDup all_nodes.
Proof. apply nodup_b_NoDup. vm_compute. reflexivity. Qed.

Lemma forest_perm : Permutation all_nodes all_cats.
Proof.
  apply NoDup_Permutation_bis.
  - apply forest_nodup.
  - vm_compute. apply le_n.
  - intros x _. apply all_cats_complete.
Qed.

Lemma forest_complete : forall c, In c all_nodes.
Proof. intros c. apply (Permutation_in c (Permutation_sym forest_perm)), all_cats_complete. Qed.

Lemma parent_unique : forall p q c, In (p, c) edges -> In (q, c) edges -> p = q.
Proof.
  assert (H : NoDup (map snd edges)) by (apply nodup_b_NoDup; vm_compute; reflexivity).
  intros p q c Hp Hq. pose proof (NoDup_map_inj snd _ _ _ H Hp Hq eq_refl) as E. congruence.
Qed.

(* The queries.  Each is compared by computation, category by category (by_table): children with [kids], the successors
   along [edges]; nodes and leaves with their unfolding in terms of children; _is_child with [closure1]. *)

Definition kids (a : cat) : list cat := map snd (filter (fun e => cat_beq (fst e) a) edges).

Lemma kids_edge a k : In k (kids a) <-> In (a, k) edges.
Proof.
  unfold kids. rewrite in_map_iff. split.
  - intros [[p c] [Hs Hf]]. simpl in Hs. subst. apply filter_In in Hf. destruct Hf as [Hi He].
    simpl in He. apply cat_beq_true in He. subst. exact Hi.
  - intros H. exists (a, k). split; [reflexivity|]. apply filter_In. split; [exact H|]. simpl. apply cat_beq_refl.
Qed.

Lemma children_kids p : children p = kids p.
Proof. revert p. apply by_table. vm_compute. reflexivity. Qed.

Lemma children_spec p c : In c (children p) <-> In (p, c) edges.
Proof. rewrite children_kids. apply kids_edge. Qed.

Lemma nodes_unfold p : nodes p = children p ++ flat_map nodes (children p).
Proof. revert p. apply by_table. vm_compute. reflexivity. Qed.

Lemma nodes_spec p c : In c (nodes p) <-> desc p c /\ c <> p.
Proof. exact (nd_desc children nodes children_spec nodes_unfold p c). Qed.

Lemma nodes_nodup p : NoDup (nodes p).
Proof. apply nodup_b_NoDup. revert p. apply (by_table _ (fun _ => true)). vm_compute. reflexivity. Qed.

Lemma leaves_filter p : leaves p = filter (fun c => match children c with [] => true | _ => false end) (nodes p).
Proof. revert p. apply by_table. vm_compute. reflexivity. Qed.

Lemma leaf_test c : match children c with [] => true | _ => false end = true <-> is_leaf c.
Proof.
  unfold is_leaf. setoid_rewrite <- children_spec. destruct (children c) as [|k l]; split; [intros _ k [] | reflexivity | discriminate |].
  intros H. destruct (H k). now left.
Qed.

Lemma leaves_spec p c : In c (leaves p) <-> desc p c /\ c <> p /\ is_leaf c.
Proof. rewrite leaves_filter, filter_In, nodes_spec, leaf_test. tauto. Qed.

Lemma closure1_spec a c : In c (closure1 a) <-> desc a c.
Proof.
  unfold closure1. rewrite in_app_iff, nodes_spec. simpl. split.
  - intros [[H _]|[H|[]]]; [exact H | subst; apply desc_refl].
  - intros H. destruct (cat_eq_dec c a) as [-> | N]; auto.
Qed.

(* stated for each p as an equation between two short lists, not for each pair (p, c): in the computation [canon] is
   handed closure1 p evaluated, once for the 37 candidates c *)
Lemma is_child_table p : filter (is_child p) all_cats = canon (closure1 p).
Proof. revert p. apply by_table. vm_compute. reflexivity. Qed.

Lemma is_child_spec p c : is_child p c = true <-> desc p c.
Proof.
  rewrite <- closure1_spec, <- canon_In, <- is_child_table, filter_In.
  split; [intros H; split; [apply all_cats_complete | exact H] | tauto].
Qed.

Lemma closure_spec l c : In c (closure l) <-> exists a, In a l /\ desc a c.
Proof.
  unfold closure. rewrite in_flat_map. split; intros [a [H1 H2]]; exists a; split; auto; now apply closure1_spec.
Qed.

Definition selected (inc exc : list cat) (c : cat) : Prop :=
  (exists a, In a inc /\ desc a c) /\ ~ (exists b, In b exc /\ desc b c).

Lemma valid_spec inc exc c : In c (valid (Some inc) (Some exc)) <-> selected inc exc c.
Proof.
  unfold valid, selected. rewrite filter_In, negb_true_iff, mem_false, !closure_spec. tauto.
Qed.

Lemma valid_none_include exc c : In c (valid None (Some exc)) <-> ~ (exists b, In b exc /\ desc b c).
Proof.
  etransitivity; [apply (valid_spec all_nodes exc)|]. split; [intros [_ H]; exact H|].
  intros H. split; [exists c; split; [apply forest_complete | apply desc_refl] | exact H].
Qed.

Lemma valid_none_exclude inc c : In c (valid (Some inc) None) <-> exists a, In a inc /\ desc a c.
Proof.
  etransitivity; [apply (valid_spec inc [])|]. split; [intros [H _]; exact H|].
  intros H. split; [exact H | intros [b [[] _]]].
Qed.

Lemma valid_none_none c : In c (valid None None).
Proof. apply valid_none_include. intros [b [[] _]]. Qed.

Lemma valid_none_eq inc exc : canon (valid inc exc) =
  canon (valid (Some (match inc with None => all_nodes | Some l => l end))
               (Some (match exc with None => [] | Some l => l end))).
Proof. destruct inc, exc; reflexivity. Qed.

Lemma matches_spec c inc exc :
  matches c inc exc = true <-> exists d, desc c d /\ In d (valid inc exc).
Proof.
  unfold matches. rewrite existsb_exists.
  split; intros [d [H1 H2]]; exists d; (split; [now apply closure1_spec | now apply mem_In]).
Qed.

(* python callers pass sets, lists or tuples, with or without repeated members: only the SET of the members matters *)
Definition same_set (l1 l2 : list cat) : Prop := forall c, In c l1 <-> In c l2.

Lemma canon_ext l1 l2 : same_set l1 l2 -> canon l1 = canon l2.
Proof.
  intros H. unfold canon. apply filter_ext. intros c. apply eq_true_iff_eq. rewrite !mem_In. apply H.
Qed.

Lemma valid_same_set inc inc' exc exc' :
  same_set inc inc' -> same_set exc exc' ->
  canon (valid (Some inc) (Some exc)) = canon (valid (Some inc') (Some exc')).
Proof.
  intros Hi He. apply canon_ext. intros c. rewrite !valid_spec. unfold selected.
  setoid_rewrite (Hi _). setoid_rewrite (He _). reflexivity.
Qed.

Lemma valid_all_identity : canon (valid None None) = all_cats.
Proof. apply filter_all. intros c _. apply mem_In, valid_none_none. Qed.

(* non-vacuity: the relation is not trivial *)
Example desc_example : desc CORE PITCH /\ ~ desc PITCH CORE /\ ~ desc SIGNATURES PITCH.
Proof.
  repeat split.
  - apply is_child_spec. vm_compute. reflexivity.
  - intros H. apply is_child_spec in H. vm_compute in H. discriminate.
  - intros H. apply is_child_spec in H. vm_compute in H. discriminate.
Qed.
